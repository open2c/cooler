(** C08 composed with C02 and C03: what a user READS from a coarsened cooler.  For a valid symmetric-upper collection,
    the dense range query on the k-fold coarsened collection — every window of coarse bins, every read chunk size, every
    coarsening chunk / batch size — is the symmetric completion of the base's stored pixels re-keyed by the bin-index
    table (old bin -> coarse bin): cell (I, J) = sum of the stored values of all base pixels that fall into coarse pixel
    {I, J}. *)
From Cooler Require Import Model.Query Model.Index Model.Coarsen Proofs.PixelsProofs Proofs.QueryMain
     Proofs.BinsProofs Proofs.CoarsenProofs Proofs.IndexProofs Proofs.HistoryProofs Proofs.EndToEnd.

Theorem coarsen_then_dense_query blocks (c : Index.cooler) k chunksize batchsize cs i0 i1 j0 j1 :
  EntryOK (blocks, c) -> symmetric_upper c = true -> 1 <= k -> 1 <= chunksize -> 1 <= batchsize -> 1 <= cs ->
  let nb := map (coarsen_block k) blocks in
  let n' := zlen (concat nb) in
  0 <= i0 -> i0 <= i1 -> i1 <= n' -> 0 <= j0 -> j0 <= j1 -> j1 <= n' ->
  exists c' out,
    create_model (zlen nb) (map bchrom (concat nb))
                 (snd (coarsen_cooler (concat blocks) (map chrom_end blocks) (Index.pixels_of c) k chunksize batchsize)) true = Some c' /\
    fill_lower_query (epx_of (Index.pixels_of c')) (Index.bin1_offset c') (get_spans (Index.bin1_offset c') cs) (i0, i1, j0, j1) = Some out /\
    dense_of out (i0, i1, j0, j1) =
    map (fun I => map (fun J => symm (map (rekey (index_table (map zlen blocks) k)) (Index.pixels_of c)) I J)
                      (zrange j0 (Z.to_nat (j1 - j0))))
        (zrange i0 (Z.to_nat (i1 - i0))).
Proof.
  intros HE Hs Hk Hcz Hbz Hcs nb n' Hi0 Hi Hi1 Hj0 Hj Hj1.
  destruct (coarsen_valid blocks c k chunksize batchsize HE Hk Hcz Hbz) as (_ & Hsnd & c' & Hc' & HE' & Hpx & Hs').
  fold nb in Hc', HE'. rewrite Hs in Hc', Hs'.
  destruct HE' as (_ & HV' & Hch' & _).
  assert (Hnb : nbins c' = n').
  { rewrite <- (IndexProofs.validcsr_nbins _ HV'), Hch'. apply zlen_map. }
  destruct (stored_cooler_range_queries c' cs i0 i1 j0 j1 HV' Hcs) as (_ & Hq); try lia.
  destruct (Hq Hs') as (out & Ho & _ & Hd).
  exists c', out. split; [exact Hc'|]. split; [exact Ho|]. rewrite Hd, Hpx, Hsnd.
  apply map_ext. intro I. apply map_ext. intro J. apply symm_aggregate.
Qed.

(** Integration across properties: a stored collection that satisfies the schema of C02 (IndexProofs.ValidCSR)
    satisfies the hypotheses of the range-query theorems of C03 (QueryProofs.ValidCSR, and Upper when it is
    symmetric-upper), so every range query on every schema-valid collection is answered exactly.  That the operations
    write schema-valid collections is Proofs/HistoryProofs.v. *)
From Cooler Require Import Model.Query Proofs.PixelsProofs Proofs.QueryProofs Proofs.SpansProofs Proofs.QueryMain.
From Cooler Require Model.Index Proofs.IndexProofs.
From Coq Require Import Sorted ZifyBool.

Definition rkey (x : ipixel) : Z := row (snd x).
(** sorted by row alone, which is all the CSR index needs *)
Definition RowSorted (l : list ipixel) : Prop := StronglySorted (fun a b => rkey a <= rkey b) l.

Lemma filter_lt_succ l k : RowSorted l ->
  filter (fun x => rkey x <? k + 1) l = filter (fun x => rkey x <? k) l ++ filter (fun x => rkey x =? k) l.
Proof.
  induction l as [|a t IH]; intro H; [reflexivity|]. inversion H as [|? ? Ht Hall]; subst.
  cbn [filter]. destruct (rkey a <? k) eqn:E1.
  - replace (rkey a <? k + 1) with true by lia. replace (rkey a =? k) with false by lia. cbn [app]. f_equal. now apply IH.
  - assert (Ht0 : filter (fun x => rkey x <? k) t = []).
    { apply filter_none. intros x Hx. rewrite Forall_forall in Hall. specialize (Hall x Hx). lia. }
    rewrite Ht0. cbn [app]. destruct (rkey a =? k) eqn:E2.
    + replace (rkey a <? k + 1) with true by lia. f_equal. apply filter_ext_in. intros x Hx.
      rewrite Forall_forall in Hall. specialize (Hall x Hx). lia.
    + replace (rkey a <? k + 1) with false by lia. rewrite <- (app_nil_l (filter (fun x => rkey x =? k) t)), <- Ht0. now apply IH.
Qed.

Lemma concat_rows_lt l : RowSorted l -> (forall x, In x l -> 0 <= rkey x) ->
  forall m, concat (map (fun i => filter (fun x => rkey x =? i) l) (zrange 0 m)) = filter (fun x => rkey x <? Z.of_nat m) l.
Proof.
  intros Hs Hnn. induction m as [|m IH].
  - cbn. symmetry. apply filter_none. intros x Hx. specialize (Hnn x Hx). lia.
  - rewrite zrange_snoc, map_app, concat_app, IH. cbn [map concat]. rewrite app_nil_r.
    replace (Z.of_nat (S m)) with (Z.of_nat m + 1) by lia. rewrite (filter_lt_succ l (Z.of_nat m) Hs).
    replace (0 + Z.of_nat m) with (Z.of_nat m) by lia. reflexivity.
Qed.

(** a row-sorted table with row ids in [0, n) and the counting index form a valid CSR structure *)
Theorem csr_of_row_sorted n (l : list ipixel) : 0 <= n -> RowSorted l -> (forall x, In x l -> 0 <= rkey x < n) ->
  ValidCSR n l (map (fun b => zlen (filter (fun x => rkey x <? b) l)) (zrange 0 (Z.to_nat (n + 1)))).
Proof.
  intros Hn Hs Hr. exists (rows_of n l). unfold rows_of.
  assert (Hlen : zlen (map (fun i => filter (fun r => row (snd r) =? i) l) (zrange 0 (Z.to_nat n))) = n).
  { unfold zlen, zrange. rewrite !map_length, seq_length. lia. }
  split; [exact Hlen|]. split; [|split; [|apply labelled_rows_of]].
  - change (fun r : ipixel => row (snd r) =? ?i) with (fun x : ipixel => rkey x =? i).
    rewrite (concat_rows_lt l Hs) by (intros x Hx; specialize (Hr x Hx); lia).
    symmetry. apply filter_all. intros x Hx. specialize (Hr x Hx). lia.
  - apply nth_ext with (d := 0) (d' := 0); rewrite ?psums_length, !map_length, ?zrange_length; [lia|].
    intros i Hi. rewrite psums_nth by (rewrite map_length, zrange_length; lia).
    rewrite nth_map_zrange by lia.
    rewrite firstn_map_zrange by lia.
    change (fun r : ipixel => row (snd r) =? ?j) with (fun x : ipixel => rkey x =? j).
    now rewrite (concat_rows_lt l Hs) by (intros x Hx; specialize (Hr x Hx); lia).
Qed.

Lemma ssorted_row_sorted px : SSorted px -> RowSorted (epx_of px).
Proof.
  intro H. unfold RowSorted, epx_of. apply ssorted_map_inv with (f := snd) (R := fun p q => row p <= row q).
  rewrite map_snd_enumerate. unfold SSorted, keys in H. apply ssorted_map_inv in H.
  eapply sorted_weaken; [|exact H]. intros a b Hk. unfold klt, row in *. lia.
Qed.
Lemma map_row_pixels_of b1 b2 cs : length b1 = length b2 -> length b2 = length cs ->
  map row (combine (combine b1 b2) cs) = b1.
Proof.
  revert b2 cs; induction b1 as [|a t IH]; intros [|b b2] [|c cs] H1 H2; cbn in *; try lia; [reflexivity|].
  unfold row at 1; cbn [fst snd]. f_equal. apply IH; lia.
Qed.

Lemma bin1_is_rows (c : Index.cooler) : IndexProofs.ValidCSR c -> Index.bin1 c = map row (Index.pixels_of c).
Proof.
  intros (H1 & H2 & H3 & _). unfold Index.pixels_of. symmetry.
  apply map_row_pixels_of; unfold zlen in *; lia.
Qed.

(** the schema's offsets count the records below each row, which is the prefix-sum index of a row-sorted table
    ([csr_of_row_sorted]); strictly sorted keys give the rest *)
Theorem stored_cooler_meets_query_hypotheses (c : Index.cooler) :
  IndexProofs.ValidCSR c ->
  ValidCSR (Index.nbins c) (epx_of (Index.pixels_of c)) (Index.bin1_offset c) /\
  (Index.symmetric_upper c = true -> Upper (epx_of (Index.pixels_of c))) /\
  NoDup (keys (map snd (epx_of (Index.pixels_of c)))) /\
  map snd (epx_of (Index.pixels_of c)) = Index.pixels_of c.
Proof.
  intro HV. pose proof (bin1_is_rows c HV) as Hb1. destruct HV as (_ & _ & _ & Hs & Hr & Hu & Hoff & Hbc & _).
  set (px := Index.pixels_of c) in *.
  assert (Hmap : map snd (epx_of px) = px) by apply map_snd_enumerate.
  assert (Hn : 0 <= Index.nbins c) by (rewrite <- Hbc; apply zlen_nonneg).
  split; [|split; [|split; [rewrite Hmap; now apply (ssorted_nodup klt klt_irrefl)|exact Hmap]]].
  - rewrite Hoff. unfold Index.offsets_of.
    rewrite (map_ext (Index.count_lt (Index.bin1 c)) (fun b => zlen (filter (fun x => rkey x <? b) (epx_of px)))).
    + apply csr_of_row_sorted; [exact Hn|now apply ssorted_row_sorted|].
      intros x Hx. assert (In (snd x) px) by (rewrite <- Hmap; now apply in_map). specialize (Hr (snd x) H). unfold rkey. lia.
    + intro b. unfold Index.count_lt. rewrite Hb1, filter_map_swap, zlen_map. rewrite <- Hmap at 1. rewrite filter_map_swap, zlen_map. reflexivity.
  - intros Hsym r Hin. apply (Hu Hsym). rewrite <- Hmap. now apply in_map.
Qed.

(** every range query on every collection that satisfies the schema is answered exactly:
    pixel output = the stored records in the window, matrix output = the sub-block of the symmetric matrix *)
Theorem stored_cooler_range_queries (c : Index.cooler) cs i0 i1 j0 j1 :
  IndexProofs.ValidCSR c -> 1 <= cs ->
  0 <= i0 -> i0 <= i1 -> i1 <= Index.nbins c -> 0 <= j0 -> j0 <= j1 -> j1 <= Index.nbins c ->
  let epx := epx_of (Index.pixels_of c) in
  let off := Index.bin1_offset c in
  direct_query epx off (get_spans off cs) (i0, i1, j0, j1) = filter (fun r => in_window (i0, i1, j0, j1) (snd r)) epx /\
  (Index.symmetric_upper c = true ->
   exists out, fill_lower_query epx off (get_spans off cs) (i0, i1, j0, j1) = Some out /\
     NoDup (keys (map snd out)) /\
     dense_of out (i0, i1, j0, j1) =
     map (fun i => map (fun j => symm (Index.pixels_of c) i j) (zrange j0 (Z.to_nat (j1 - j0)))) (zrange i0 (Z.to_nat (i1 - i0)))).
Proof.
  intros HV Hcs Hi0 Hi Hi1 Hj0 Hj Hj1 epx off.
  destruct (stored_cooler_meets_query_hypotheses c HV) as (HQ & HU & HN & Hmap). fold epx in HQ, HU, HN, Hmap. fold off in HQ.
  split; [apply (direct_query_get_spans (Index.nbins c)); assumption|].
  intro Hsym. specialize (HU Hsym). rewrite get_spans_eq.
  destruct (dense_eq_slice (Index.nbins c) epx off HQ (linspace_cuts cs) (linspace_admissible cs Hcs) i0 i1 j0 j1) as [out [Ho Hd]]; try assumption.
  destruct (fill_lower_nodup (Index.nbins c) epx off HQ (linspace_cuts cs) (linspace_admissible cs Hcs) i0 i1 j0 j1) as [out' [Ho' Hn']]; try assumption.
  rewrite Ho in Ho'. inversion Ho'; subst out'.
  exists out. split; [exact Ho|]. split; [exact Hn'|]. rewrite Hd, Hmap. reflexivity.
Qed.

(** create (C01/C02 model) followed by the query engine (C03 model): what is read through the real engine
    model is the matrix that was given, for every window and chunk size *)
Theorem create_then_query n_chroms chroms (px : list pixel) cs i0 i1 j0 j1 :
  0 <= n_chroms -> IndexProofs.NonDecr chroms -> (forall x, In x chroms -> 0 <= x < n_chroms) ->
  SSorted px ->
  (forall p, In p px -> 0 <= row p < zlen chroms /\ 0 <= col p < zlen chroms) ->
  (forall p, In p px -> row p <= col p) ->
  1 <= cs -> 0 <= i0 -> i0 <= i1 -> i1 <= zlen chroms -> 0 <= j0 -> j0 <= j1 -> j1 <= zlen chroms ->
  exists c, Index.create_model n_chroms chroms px true = Some c /\ Index.pixels_of c = px /\
    direct_query (epx_of px) (Index.bin1_offset c) (get_spans (Index.bin1_offset c) cs) (i0, i1, j0, j1)
      = filter (fun r => in_window (i0, i1, j0, j1) (snd r)) (epx_of px) /\
    exists out, fill_lower_query (epx_of px) (Index.bin1_offset c) (get_spans (Index.bin1_offset c) cs) (i0, i1, j0, j1) = Some out /\
      NoDup (keys (map snd out)) /\
      dense_of out (i0, i1, j0, j1) =
      map (fun i => map (fun j => symm px i j) (zrange j0 (Z.to_nat (j1 - j0)))) (zrange i0 (Z.to_nat (i1 - i0))).
Proof.
  intros Hnc Hch Hcr Hs Hr Hu Hcs Hi0 Hi Hi1 Hj0 Hj Hj1.
  destruct (IndexProofs.create_valid n_chroms chroms px true Hnc Hch Hcr Hs Hr (fun _ => Hu)) as [c (Hc & HV & Hpx & Hnb & _ & Hsym)].
  exists c. split; [exact Hc|]. split; [exact Hpx|].
  pose proof (stored_cooler_range_queries c cs i0 i1 j0 j1 HV Hcs Hi0 Hi ltac:(lia) Hj0 Hj ltac:(lia)) as Hq.
  cbv zeta in Hq. rewrite Hpx in Hq. destruct Hq as [Hd Hf]. split; [exact Hd|]. exact (Hf Hsym).
Qed.

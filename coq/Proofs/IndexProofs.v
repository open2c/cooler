(** C02 — proofs about the run-length encoder, the CSR index builders and the
    structural validity of a stored collection (model: Model/Index.v).  In this order:
    - rlencode: the block-wise encoder equals [rle_spec]; [rle_spec] decodes back and has maximal, non-empty runs;
    - fill_slice / fill_tail, [count_lt], [NonDecr];
    - the index loop: index_pixels / index_bins compute [offsets_of] (the counting index); what it gives a reader;
    - [ValidCSR], its boolean checker, its projections, re-indexing a valid collection;
    - what create() stores for a good stream is valid ([create_stored], [create_valid]); the column writer and chunked creation;
    - info()'s bin type / bin size; ValidCSR along a history of operations, given the producers. *)
From Cooler Require Import Model.Bins Proofs.BinsProofs Model.Index Proofs.PixelsProofs.
From Coq Require Import Sorted ZifyBool.

Local Open Scope Z_scope.

Lemma inner_locs_rle_from r : forall p k, inner_locs p k r = rle_from (Some p) k r.
Proof.
  induction r as [|v t IH]; intros p k; cbn [inner_locs rle_from]; [reflexivity|].
  rewrite IH. unfold differs. destruct (v =? p); reflexivity.
Qed.

Lemma rle_block_rle_from prev i x : rle_block prev i x = rle_from prev i x.
Proof.
  destruct x as [|v t]; cbn [rle_block rle_from]; [reflexivity|].
  now rewrite inner_locs_rle_from.
Qed.

(** the encoder of a concatenation: the second part only needs the last value of the first *)
Lemma rle_from_app x : forall prev off y, x <> [] ->
  rle_from prev off (x ++ y) = rle_from prev off x ++ rle_from (Some (last x 0)) (off + zlen x) y.
Proof.
  induction x as [|v t IH]; intros prev off y Hne; [congruence|].
  destruct t as [|w t'].
  - cbn [app rle_from last]. rewrite app_nil_r. rewrite zlen_cons. change (zlen (@nil Z)) with 0.
    replace (off + (1 + 0)) with (off + 1) by lia. reflexivity.
  - change ((v :: w :: t') ++ y) with (v :: ((w :: t') ++ y)).
    cbn [rle_from]. rewrite (IH (Some v) (off + 1) y) by discriminate.
    rewrite <- app_assoc. f_equal. f_equal.
    change (last (v :: w :: t') 0) with (last (w :: t') 0).
    rewrite (zlen_cons v). f_equal. lia.
Qed.

Lemma split_at_spec l : forall c x r, split_at c l = (x, r) ->
  l = x ++ r /\ zlen x <= Z.max c 0 /\ (1 <= c -> r = [] \/ zlen x = c) /\ (1 <= c -> l <> [] -> x <> []).
Proof.
  induction l as [|a t IH]; intros c x r H; cbn [split_at] in H.
  - inversion H; subst. change (zlen (@nil Z)) with 0. repeat split; auto; try lia; try congruence.
  - destruct (c <=? 0) eqn:Ec.
    + inversion H; subst. change (zlen (@nil Z)) with 0. cbn [app]. repeat split; auto; try lia.
    + destruct (split_at (c - 1) t) as [a' b'] eqn:Es. inversion H; subst.
      destruct (IH _ _ _ Es) as (E1 & E2 & E3 & E4).
      rewrite zlen_cons. repeat split.
      * cbn [app]. now f_equal.
      * lia.
      * intros Hc. pose proof (zlen_nonneg a'). destruct (Z.eq_dec c 1) as [->|Hn]; [right; lia|].
        destruct E3 as [E3|E3]; [lia|now left|right; lia].
      * intros _ _. discriminate.
Qed.

Lemma rle_loop_eq fuel : forall c prev i rest, 1 <= c -> (length rest <= fuel)%nat ->
  rle_loop fuel c prev i rest = rle_from prev i rest.
Proof.
  induction fuel as [|f IH]; intros c prev i rest Hc Hf.
  - destruct rest; [reflexivity|cbn [length] in Hf; lia].
  - destruct rest as [|a t]; [reflexivity|].
    cbn [rle_loop]. destruct (split_at c (a :: t)) as [x r] eqn:Es.
    destruct (split_at_spec _ _ _ _ Es) as (E1 & E2 & E3 & E4).
    assert (Hx : x <> []) by (apply E4; [lia|discriminate]).
    rewrite rle_block_rle_from. rewrite E1, rle_from_app by exact Hx.
    f_equal. destruct (E3 Hc) as [E3'|E3'].
    + subst r. now destruct f.
    + rewrite E3'. apply IH; [lia|].
      assert (length (a :: t) = length x + length r)%nat by (rewrite E1; apply app_length).
      destruct x; [congruence|]. cbn [length] in *. lia.
Qed.

Theorem rlencode_c_spec a c : 1 <= c -> rlencode_c a c = rle_spec a.
Proof.
  intros Hc. unfold rlencode_c, rle_spec. f_equal. apply rle_loop_eq; [exact Hc|lia].
Qed.

Lemma rlencode_eq a chunksize : (forall c, chunksize = Some c -> 1 <= c) -> rlencode a chunksize = Some (rle_spec a).
Proof.
  intros Hc. destruct a as [|v t]; [reflexivity|]. cbn [rlencode].
  destruct chunksize as [c|]; [specialize (Hc c eq_refl); replace (c <=? 0) with false by lia|];
    (rewrite rlencode_c_spec; [reflexivity|]); [exact Hc|]. rewrite zlen_cons. pose proof (zlen_nonneg t). lia.
Qed.

Theorem rlencode_chunked_eq a c : 1 <= c -> rlencode a (Some c) = rlencode a None.
Proof. intros Hc. rewrite !rlencode_eq; [reflexivity|discriminate|now intros ? [= <-]]. Qed.

Lemma runs_of_pairs n sv : runs_of (rle_of_pairs n sv) = sv.
Proof.
  unfold runs_of, rle_of_pairs. induction sv as [|[s v] t IH]; [reflexivity|].
  cbn [map combine fst snd]. now rewrite IH.
Qed.

(** For the decoding: [skip_eq p a] is a without its leading run of p (what is left to encode once the run of the
    previous value p is over), [first_start sv n] the position where the runs sv begin, [dec sv n] the array the
    runs sv decode to when the array ends at n. *)
Fixpoint skip_eq (p : Z) (a : list Z) : list Z :=
  match a with
  | [] => []
  | v :: r => if v =? p then skip_eq p r else a
  end.

Definition first_start (sv : list (Z * Z)) (n : Z) : Z :=
  match sv with [] => n | (s, _) :: _ => s end.

Definition dec (sv : list (Z * Z)) (n : Z) : list Z :=
  rle_decode (rle_of_pairs n sv).

Lemma skip_eq_len p a : zlen (skip_eq p a) <= zlen a.
Proof.
  induction a as [|v r IH]; cbn [skip_eq]; [lia|]. destruct (v =? p); rewrite ?zlen_cons; rewrite ?zlen_cons in *; lia.
Qed.

Lemma first_start_rle r : forall p k,
  first_start (rle_from (Some p) k r) (k + zlen r) = k + (zlen r - zlen (skip_eq p r)).
Proof.
  induction r as [|v t IH]; intros p k; cbn [rle_from skip_eq differs].
  - cbn [first_start]. change (zlen (@nil Z)) with 0. lia.
  - destruct (v =? p) eqn:E; cbn [negb app].
    + assert (v = p) by lia. subst v. rewrite zlen_cons.
      replace (k + (1 + zlen t)) with (k + 1 + zlen t) by lia. rewrite IH. lia.
    + cbn [first_start]. lia.
Qed.

Lemma repeat_skip_eq v r :
  repeat v (Z.to_nat (zlen r - zlen (skip_eq v r))) ++ skip_eq v r = r.
Proof.
  induction r as [|x t IH]; cbn [skip_eq]; [reflexivity|].
  destruct (x =? v) eqn:E.
  - assert (x = v) by lia. subst x. pose proof (skip_eq_len v t). rewrite zlen_cons.
    replace (Z.to_nat (1 + zlen t - zlen (skip_eq v t))) with (S (Z.to_nat (zlen t - zlen (skip_eq v t)))) by lia.
    cbn [repeat app]. now rewrite IH.
  - replace (zlen (x :: t) - zlen (x :: t)) with 0 by lia. reflexivity.
Qed.

Lemma dec_cons s v rest n :
  dec ((s, v) :: rest) n = repeat v (Z.to_nat (first_start rest n - s)) ++ dec rest n.
Proof.
  unfold dec, rle_decode, rle_of_pairs. cbn [map fst snd app].
  destruct rest as [|[s' v'] rest']; cbn [map fst snd app diffs combine concat first_start]; reflexivity.
Qed.

Lemma dec_rle_from a : forall prev off,
  dec (rle_from prev off a) (off + zlen a) =
  match prev with None => a | Some p => skip_eq p a end.
Proof.
  induction a as [|v r IH]; intros prev off.
  - cbn [rle_from]. destruct prev; reflexivity.
  - cbn [rle_from]. rewrite zlen_cons. replace (off + (1 + zlen r)) with (off + 1 + zlen r) by lia.
    destruct (differs prev v) eqn:Ed; cbn [app].
    + rewrite dec_cons, IH, first_start_rle.
      pose proof (skip_eq_len v r).
      replace (Z.to_nat (off + 1 + (zlen r - zlen (skip_eq v r)) - off))
        with (S (Z.to_nat (zlen r - zlen (skip_eq v r)))) by lia.
      cbn [repeat app]. rewrite repeat_skip_eq.
      destruct prev as [p|]; [|reflexivity]. cbn [differs] in Ed. cbn [skip_eq].
      destruct (v =? p); [discriminate|reflexivity].
    + destruct prev as [p|]; cbn [differs] in Ed; [|discriminate].
      rewrite IH. cbn [skip_eq]. destruct (v =? p) eqn:E; [|discriminate].
      assert (v = p) by lia. now subst.
Qed.

Theorem rle_decode_rle_spec a : rle_decode (rle_spec a) = a.
Proof. unfold rle_spec. exact (dec_rle_from a None 0). Qed.

(** neighbouring runs carry different values (runs are maximal) *)
Fixpoint AdjDistinct (prev : option Z) (l : list Z) : Prop :=
  match l with
  | [] => True
  | v :: t => differs prev v = true /\ AdjDistinct (Some v) t
  end.

Lemma rle_from_adjdistinct a : forall prev off, AdjDistinct prev (map snd (rle_from prev off a)).
Proof.
  induction a as [|v r IH]; intros prev off; cbn [rle_from map]; [exact I|].
  destruct (differs prev v) eqn:Ed; cbn [app map snd AdjDistinct].
  - split; [exact Ed|apply IH].
  - destruct prev as [p|]; cbn [differs] in Ed; [|discriminate].
    assert (v = p) by lia. subst v. apply IH.
Qed.

Lemma rle_from_starts_lb a : forall prev off,
  Forall (fun s => off <= s) (map fst (rle_from prev off a) ++ [off + zlen a]).
Proof.
  induction a as [|v r IH]; intros prev off; cbn [rle_from map app].
  - constructor; [change (zlen (@nil Z)) with 0; lia|constructor].
  - rewrite zlen_cons. replace (off + (1 + zlen r)) with (off + 1 + zlen r) by lia.
    specialize (IH (Some v) (off + 1)).
    destruct (differs prev v); cbn [app map fst].
    + constructor; [lia|]. eapply Forall_impl; [|exact IH]. cbn. intros; lia.
    + eapply Forall_impl; [|exact IH]. cbn. intros; lia.
Qed.

Lemma rle_from_starts_incr a : forall prev off,
  StronglySorted Z.lt (map fst (rle_from prev off a) ++ [off + zlen a]).
Proof.
  induction a as [|v r IH]; intros prev off; cbn [rle_from map app].
  - constructor; constructor.
  - rewrite zlen_cons. replace (off + (1 + zlen r)) with (off + 1 + zlen r) by lia.
    destruct (differs prev v); cbn [app map fst].
    + constructor; [apply IH|].
      pose proof (rle_from_starts_lb r (Some v) (off + 1)) as H.
      eapply Forall_impl; [|exact H]. cbn. intros; lia.
    + apply IH.
Qed.

Lemma diffs_pos l : StronglySorted Z.lt l -> Forall (fun d => 1 <= d) (diffs l).
Proof.
  induction l as [|x t IH]; intros H; cbn [diffs]; [constructor|].
  destruct t as [|y t']; [constructor|].
  inversion H as [|? ? Ht Hall]; subst. constructor.
  - inversion Hall; subst. lia.
  - apply IH. exact Ht.
Qed.

(** what makes [rle_spec a] a run-length encoding of a: it decodes to the array, its runs are non-empty and
    maximal, and its starts are strictly increasing and lie before the end of the array *)
Theorem rle_spec_characterised a :
  let '(starts, lengths, values) := rle_spec a in
  rle_decode (starts, lengths, values) = a /\
  AdjDistinct None values /\
  Forall (fun l => 1 <= l) lengths /\
  StronglySorted Z.lt (starts ++ [zlen a]) /\
  length starts = length values /\ length lengths = length values.
Proof.
  pose proof (rle_decode_rle_spec a) as Hd. unfold rle_spec, rle_of_pairs in *.
  split; [exact Hd|]. split; [apply rle_from_adjdistinct|].
  pose proof (rle_from_starts_incr a None 0) as Hi. cbn [Z.add] in Hi.
  split; [now apply diffs_pos|]. split; [exact Hi|].
  rewrite !map_length. split; [reflexivity|].
  generalize (rle_from None 0 a) (zlen a). intros sv n.
  induction sv as [|[s v] t IH]; [reflexivity|].
  cbn [map fst app length]. destruct t as [|[s' v'] t']; [reflexivity|].
  cbn [map fst app diffs length] in *. now rewrite IH.
Qed.

Lemma fill_from_length arr : forall k lo hi v, length (fill_from k lo hi v arr) = length arr.
Proof. induction arr as [|x r IH]; intros; cbn [fill_from length]; [reflexivity|now rewrite IH]. Qed.

Lemma fill_from_nth arr : forall k lo hi v i, (i < length arr)%nat ->
  nth i (fill_from k lo hi v arr) 0 =
  if (lo <=? k + Z.of_nat i) && (k + Z.of_nat i <? hi) then v else nth i arr 0.
Proof.
  induction arr as [|x r IH]; intros k lo hi v i Hi; cbn [length] in Hi; [lia|].
  cbn [fill_from]. destruct i as [|i'].
  - cbn [nth]. replace (k + Z.of_nat 0) with k by lia. reflexivity.
  - cbn [nth]. rewrite IH by lia. replace (k + 1 + Z.of_nat i') with (k + Z.of_nat (S i')) by lia. reflexivity.
Qed.

Lemma fill_slice_length arr lo hi v : length (fill_slice arr lo hi v) = length arr.
Proof. apply fill_from_length. Qed.
Lemma fill_tail_length arr lo v : length (fill_tail arr lo v) = length arr.
Proof. apply fill_from_length. Qed.

(** slice assignment with non-negative bounds: positions lo <= i < hi receive v *)
Lemma fill_slice_nth arr lo hi v i : 0 <= lo -> 0 <= hi -> (i < length arr)%nat ->
  nth i (fill_slice arr lo hi v) 0 =
  if (lo <=? Z.of_nat i) && (Z.of_nat i <? hi) then v else nth i arr 0.
Proof.
  intros Hlo Hhi Hi. unfold fill_slice. rewrite fill_from_nth by exact Hi.
  unfold norm_idx, zlen. replace (lo <? 0) with false by lia. replace (hi <? 0) with false by lia.
  match goal with |- (if ?b then _ else _) = _ => replace b with ((lo <=? Z.of_nat i) && (Z.of_nat i <? hi)) by lia end.
  reflexivity.
Qed.
Lemma fill_tail_nth arr lo v i : 0 <= lo -> (i < length arr)%nat ->
  nth i (fill_tail arr lo v) 0 = if lo <=? Z.of_nat i then v else nth i arr 0.
Proof.
  intros Hlo Hi. unfold fill_tail. rewrite fill_from_nth by exact Hi.
  unfold norm_idx, zlen. replace (lo <? 0) with false by lia.
  match goal with |- (if ?b then _ else _) = _ => replace b with (lo <=? Z.of_nat i) by lia end.
  reflexivity.
Qed.

Lemma fill_from_id arr : forall k lo hi v, hi <= lo -> fill_from k lo hi v arr = arr.
Proof.
  induction arr as [|x r IH]; intros k lo hi v H; cbn [fill_from]; [reflexivity|].
  rewrite IH by exact H. now replace ((lo <=? k) && (k <? hi)) with false by lia.
Qed.

Lemma fill_slice_empty arr lo hi v : 0 <= hi <= lo -> fill_slice arr lo hi v = arr.
Proof.
  intros H. apply fill_from_id. unfold norm_idx.
  replace (hi <? 0) with false by lia. replace (lo <? 0) with false by lia. lia.
Qed.

Lemma count_lt_nil b : count_lt [] b = 0. Proof. reflexivity. Qed.
Lemma count_lt_cons x r b : count_lt (x :: r) b = (if x <? b then 1 else 0) + count_lt r b.
Proof. unfold count_lt. cbn [filter]. destruct (x <? b); [rewrite zlen_cons|]; lia. Qed.
Lemma count_lt_bounds a b : 0 <= count_lt a b <= zlen a.
Proof.
  induction a as [|x r IH]; [unfold count_lt, zlen; cbn; lia|].
  rewrite count_lt_cons, zlen_cons. destruct (x <? b); lia.
Qed.
Lemma count_lt_zero a b : Forall (fun x => b <= x) a -> count_lt a b = 0.
Proof.
  induction 1 as [|x r Hx _ IH]; [reflexivity|]. rewrite count_lt_cons, IH.
  replace (x <? b) with false by lia. reflexivity.
Qed.
Lemma count_lt_all a b : Forall (fun x => x < b) a -> count_lt a b = zlen a.
Proof.
  induction 1 as [|x r Hx _ IH]; [reflexivity|]. rewrite count_lt_cons, zlen_cons, IH.
  replace (x <? b) with true by lia. reflexivity.
Qed.
Lemma count_lt_mono a b b' : b <= b' -> count_lt a b <= count_lt a b'.
Proof.
  intros Hb. induction a as [|x r IH]; [rewrite !count_lt_nil; lia|].
  rewrite !count_lt_cons. destruct (x <? b) eqn:E1, (x <? b') eqn:E2; lia.
Qed.

Definition NonDecr (a : list Z) : Prop := StronglySorted Z.le a.

Lemma nondecr_b_spec a : nondecr_b a = true <-> NonDecr a.
Proof.
  unfold NonDecr. induction a as [|x t IH]; cbn [nondecr_b].
  - split; [constructor|reflexivity].
  - destruct t as [|y t'].
    + split; [intros _; constructor; constructor|reflexivity].
    + rewrite andb_true_iff, IH. split.
      * intros [H1 H2]. constructor; [exact H2|]. constructor; [lia|].
        inversion H2 as [|? ? _ Hall]; subst. eapply Forall_impl; [|exact Hall]. cbn. intros; lia.
      * intros H. inversion H as [|? ? H2 Hall]; subst. split; [|exact H2].
        inversion Hall; subst. lia.
Qed.

(** on non-negative values the encoder may as well start from "last value -1" instead of NaN *)
Lemma rle_from_none off a : Forall (fun x => 0 <= x) a -> rle_from None off a = rle_from (Some (-1)) off a.
Proof. intros [|v r Hv _]; cbn [rle_from differs]; [reflexivity|]. now replace (v =? -1) with false by lia. Qed.

(** the loop invariant of index_pixels / index_bins.  State (arr, p + 1) after a run of value p, before the runs
    of the remaining suffix s (which starts at absolute position off) are processed: the final array keeps arr
    up to p and holds off + #{x in s | x < b} behind it. *)
Lemma index_loop_inv s : forall p off arr,
  -1 <= p -> NonDecr s -> Forall (fun x => p <= x) s ->
  let '(arr', curr') := fold_left index_step (rle_from (Some p) off s) (arr, p + 1) in
  let res := fill_tail arr' curr' (off + zlen s) in
  length res = length arr /\
  forall b, (b < length arr)%nat ->
    nth b res 0 = if Z.of_nat b <=? p then nth b arr 0 else off + count_lt s (Z.of_nat b).
Proof.
  induction s as [|v r IH]; intros p off arr Hp Hs Hlow.
  - cbn [rle_from fold_left]. cbv zeta. rewrite fill_tail_length. split; [reflexivity|].
    intros b Hb. rewrite fill_tail_nth by lia. change (zlen (@nil Z)) with 0. rewrite count_lt_nil.
    now replace (p + 1 <=? Z.of_nat b) with (negb (Z.of_nat b <=? p)) by lia; destruct (Z.of_nat b <=? p).
  - apply StronglySorted_inv in Hs as [Hs Hall]. apply Forall_inv in Hlow.
    (* a new run (off, v) sets the slice [p + 1, v + 1) to off; when v continues the run of p that slice is empty *)
    assert (E : fold_left index_step (rle_from (Some p) off (v :: r)) (arr, p + 1)
                = fold_left index_step (rle_from (Some v) (off + 1) r) (fill_slice arr (p + 1) (v + 1) off, v + 1)).
    { cbn [rle_from differs]. destruct (v =? p) eqn:E; cbn [negb app fold_left index_step]; [|reflexivity].
      assert (v = p) as -> by lia. now rewrite fill_slice_empty by lia. }
    rewrite E. specialize (IH v (off + 1) (fill_slice arr (p + 1) (v + 1) off)).
    destruct (fold_left index_step (rle_from (Some v) (off + 1) r) _) as [arr' curr'].
    cbv zeta in IH |- *. rewrite fill_slice_length in IH. destruct IH as [IHl IHn]; [lia|exact Hs|exact Hall|].
    rewrite zlen_cons, Z.add_assoc. split; [exact IHl|].
    intros b Hb. rewrite IHn, fill_slice_nth, count_lt_cons by lia.
    destruct (Z.of_nat b <=? v) eqn:E1, (Z.of_nat b <=? p) eqn:E2; try lia.
    + replace (p + 1 <=? Z.of_nat b) with false by lia. reflexivity.
    + replace (Z.of_nat b <? v + 1) with true by lia. replace (p + 1 <=? Z.of_nat b) with true by lia.
      replace (v <? Z.of_nat b) with false by lia. rewrite count_lt_zero; [cbn; lia|].
      eapply Forall_impl; [|exact Hall]. cbn. intros; lia.
    + replace (v <? Z.of_nat b) with true by lia. lia.
Qed.

Lemma offsets_of_length n a : length (offsets_of n a) = Z.to_nat (n + 1).
Proof. unfold offsets_of. now rewrite map_length, zrange_length. Qed.

Lemma offsets_of_nth n a b : (b < Z.to_nat (n + 1))%nat ->
  nth b (offsets_of n a) 0 = count_lt a (Z.of_nat b).
Proof.
  intros Hb. unfold offsets_of, zrange. rewrite map_map.
  rewrite nth_indep with (d' := count_lt a (0 + Z.of_nat 0)) by (now rewrite map_length, seq_length).
  rewrite (map_nth (fun k => count_lt a (0 + Z.of_nat k)) (seq 0 (Z.to_nat (n + 1))) 0%nat b).
  rewrite seq_nth by exact Hb. f_equal.
Qed.

(** No upper bound on the values is needed: entries >= n are simply never counted. *)
Theorem index_runs_spec n a : 0 <= n -> NonDecr a -> Forall (fun x => 0 <= x) a ->
  index_runs n (rle_from None 0 a) (zlen a) = offsets_of n a.
Proof.
  intros Hn Hs Hpos. unfold index_runs. rewrite rle_from_none by exact Hpos.
  pose proof (index_loop_inv a (-1) 0 (repeat 0 (Z.to_nat (n + 1))) (Z.le_refl _) Hs) as H.
  change (-1 + 1) with 0 in H.
  destruct (fold_left index_step (rle_from (Some (-1)) 0 a) (repeat 0 (Z.to_nat (n + 1)), 0)) as [arr' curr'].
  cbv zeta in H. cbn [Z.add] in H. rewrite repeat_length in H. destruct H as [Hl Hnth]; [eapply Forall_impl; [|exact Hpos]; cbn; lia|].
  apply nth_ext with (d := 0) (d' := 0); rewrite Hl; [now rewrite offsets_of_length|].
  intros b Hb. rewrite Hnth, offsets_of_nth by exact Hb. now replace (Z.of_nat b <=? -1) with false by lia.
Qed.

Lemma index_with_spec cs a n : (forall c, cs = Some c -> 1 <= c) -> 0 <= n -> NonDecr a -> Forall (fun x => 0 <= x) a ->
  index_with n (rlencode a cs) (zlen a) = Some (offsets_of n a).
Proof.
  intros Hc Hn Hs Hpos. rewrite rlencode_eq by exact Hc. cbn [index_with]. unfold rle_spec.
  now rewrite runs_of_pairs, index_runs_spec.
Qed.

Theorem index_pixels_c_spec c a n : 1 <= c -> 0 <= n -> NonDecr a -> Forall (fun x => 0 <= x) a ->
  index_pixels_c c a n (zlen a) = Some (offsets_of n a).
Proof. intros Hc. apply index_with_spec. now intros ? [= <-]. Qed.

Theorem index_pixels_spec a n : 0 <= n -> NonDecr a -> Forall (fun x => 0 <= x) a ->
  index_pixels a n (zlen a) = Some (offsets_of n a).
Proof. apply index_pixels_c_spec. lia. Qed.

Theorem index_bins_spec a n : 0 <= n -> NonDecr a -> Forall (fun x => 0 <= x) a ->
  index_bins a n (zlen a) = Some (offsets_of n a).
Proof. apply index_with_spec. discriminate. Qed.

(** without sortedness the loop does not compute the counting index *)
Theorem index_pixels_unsorted_refuted :
  exists a n, Forall (fun x => 0 <= x < n) a /\ index_pixels a n (zlen a) <> Some (offsets_of n a).
Proof.
  exists [1; 0], 2. split; [repeat constructor; lia|]. vm_compute. discriminate.
Qed.

(** in a non-decreasing column the entries smaller than b form a prefix *)
Lemma sorted_count_lt a : NonDecr a -> forall b k, (k < length a)%nat ->
  (Z.of_nat k < count_lt a b <-> nth k a 0 < b).
Proof.
  induction a as [|x r IH]; intros Hs b k Hk; cbn [length] in Hk; [lia|].
  apply StronglySorted_inv in Hs. destruct Hs as [Hs Hall].
  rewrite count_lt_cons. pose proof (count_lt_bounds r b) as Hb.
  destruct (x <? b) eqn:Ex.
  - destruct k as [|k']; cbn [nth]; [lia|].
    rewrite <- (IH Hs b k') by lia. lia.
  - assert (Hz : count_lt r b = 0).
    { apply count_lt_zero. eapply Forall_impl; [|exact Hall]. cbn. intros; lia. }
    rewrite Hz. destruct k as [|k']; cbn [nth]; [lia|].
    assert (x <= nth k' r 0).
    { rewrite Forall_forall in Hall. apply Hall. apply nth_In. lia. }
    lia.
Qed.

(** the CSR invariant the reader relies on: row b occupies exactly the positions
    offset[b] <= k < offset[b+1] *)
Theorem csr_row_iff a b k : NonDecr a -> (k < length a)%nat ->
  (count_lt a b <= Z.of_nat k < count_lt a (b + 1) <-> nth k a 0 = b).
Proof.
  intros Hs Hk. pose proof (sorted_count_lt a Hs b k Hk). pose proof (sorted_count_lt a Hs (b + 1) k Hk). lia.
Qed.

Theorem offsets_props n a : 0 <= n -> NonDecr a -> Forall (fun x => 0 <= x < n) a ->
  let off := offsets_of n a in
  length off = Z.to_nat (n + 1) /\
  nth 0 off 0 = 0 /\
  nth (Z.to_nat n) off 0 = zlen a /\
  (forall b b', (b <= b')%nat -> (b' <= Z.to_nat n)%nat -> nth b off 0 <= nth b' off 0) /\
  (forall k, (k < length a)%nat ->
     nth (Z.to_nat (nth k a 0)) off 0 <= Z.of_nat k < nth (Z.to_nat (nth k a 0 + 1)) off 0).
Proof.
  intros Hn Hs Hr off. subst off. split; [apply offsets_of_length|].
  split; [|split; [|split]].
  - rewrite offsets_of_nth by lia. apply count_lt_zero. eapply Forall_impl; [|exact Hr]. cbn. intros; lia.
  - rewrite offsets_of_nth by lia. rewrite Z2Nat.id by lia. apply count_lt_all.
    eapply Forall_impl; [|exact Hr]. cbn. intros; lia.
  - intros b b' Hb Hb'. rewrite !offsets_of_nth by lia. apply count_lt_mono. lia.
  - intros k Hk. assert (Hv : 0 <= nth k a 0 < n).
    { rewrite Forall_forall in Hr. apply Hr. now apply nth_In. }
    rewrite !offsets_of_nth by lia. rewrite !Z2Nat.id by lia.
    now apply csr_row_iff.
Qed.

(** the published schema of one data collection, as a proposition over its raw content *)
Definition ValidCSR (c : cooler) : Prop :=
  zlen (bin1 c) = nnz c /\ zlen (bin2 c) = nnz c /\ zlen (counts c) = nnz c /\
  SSorted (pixels_of c) /\
  (forall p, In p (pixels_of c) -> 0 <= row p < nbins c /\ 0 <= col p < nbins c) /\
  (symmetric_upper c = true -> forall p, In p (pixels_of c) -> row p <= col p) /\
  bin1_offset c = offsets_of (nbins c) (bin1 c) /\
  zlen (bin_chrom c) = nbins c /\ NonDecr (bin_chrom c) /\
  (forall x, In x (bin_chrom c) -> 0 <= x < nchroms c) /\
  chrom_offset c = offsets_of (nchroms c) (bin_chrom c) /\
  sum c = sumZ (counts c).

Lemma list_eqb_spec l1 : forall l2, list_eqb l1 l2 = true <-> l1 = l2.
Proof.
  induction l1 as [|x r IH]; intros [|y r2]; cbn [list_eqb]; try (split; [discriminate|discriminate]); [tauto|].
  rewrite andb_true_iff, IH, Z.eqb_eq. split; [intros [-> ->]; reflexivity|intros H; inversion H; auto].
Qed.

Lemma inrange_b_spec n l : inrange_b n l = true <->
  forall p, In p l -> 0 <= row p < n /\ 0 <= col p < n.
Proof.
  unfold inrange_b. rewrite forallb_forall. split; intros H p Hp; specialize (H p Hp); lia.
Qed.
Lemma upper_b_spec l : upper_b l = true <-> forall p, In p l -> row p <= col p.
Proof.
  unfold upper_b. rewrite forallb_forall. split; intros H p Hp; specialize (H p Hp); lia.
Qed.
Lemma inrange1_b_spec n l : inrange1_b n l = true <-> forall x, In x l -> 0 <= x < n.
Proof.
  unfold inrange1_b. rewrite forallb_forall. split; intros H p Hp; specialize (H p Hp); lia.
Qed.

Theorem valid_csr_b_spec c : valid_csr_b c = true <-> ValidCSR c.
Proof.
  unfold valid_csr_b, ValidCSR.
  rewrite !andb_true_iff, !Z.eqb_eq, ssorted_b_spec, inrange_b_spec, !list_eqb_spec,
          nondecr_b_spec, inrange1_b_spec.
  destruct (symmetric_upper c).
  - rewrite upper_b_spec. intuition congruence.
  - intuition congruence.
Qed.

Corollary valid_csr_b_sound c : valid_csr_b c = true -> ValidCSR c.
Proof. apply valid_csr_b_spec. Qed.

(** the conjuncts of [ValidCSR] by name *)
Lemma validcsr_lens c : ValidCSR c -> zlen (bin1 c) = nnz c /\ zlen (bin2 c) = nnz c /\ zlen (counts c) = nnz c.
Proof. unfold ValidCSR. tauto. Qed.
Lemma validcsr_sorted c : ValidCSR c -> SSorted (pixels_of c).
Proof. unfold ValidCSR. tauto. Qed.
Lemma validcsr_inrange c : ValidCSR c -> forall p, In p (pixels_of c) -> 0 <= row p < nbins c /\ 0 <= col p < nbins c.
Proof. unfold ValidCSR. tauto. Qed.
Lemma validcsr_upper c : ValidCSR c -> symmetric_upper c = true -> forall p, In p (pixels_of c) -> row p <= col p.
Proof. unfold ValidCSR. tauto. Qed.
Lemma validcsr_bin1_offset c : ValidCSR c -> bin1_offset c = offsets_of (nbins c) (bin1 c).
Proof. unfold ValidCSR. tauto. Qed.
Lemma validcsr_nbins c : ValidCSR c -> zlen (bin_chrom c) = nbins c.
Proof. unfold ValidCSR. tauto. Qed.
Lemma validcsr_chroms c : ValidCSR c -> NonDecr (bin_chrom c) /\ forall x, In x (bin_chrom c) -> 0 <= x < nchroms c.
Proof. unfold ValidCSR. tauto. Qed.
Lemma validcsr_chrom_offset c : ValidCSR c -> chrom_offset c = offsets_of (nchroms c) (bin_chrom c).
Proof. unfold ValidCSR. tauto. Qed.

Lemma pixels_rows c : zlen (bin1 c) = zlen (bin2 c) -> zlen (bin1 c) = zlen (counts c) ->
  map row (pixels_of c) = bin1 c.
Proof.
  unfold pixels_of, zlen. generalize (bin1 c) (bin2 c) (counts c). intros l1.
  induction l1 as [|x t IH]; intros [|y t2] [|z t3] Ha Hb; cbn [length] in *; try lia; [reflexivity|].
  cbn [combine map]. unfold row at 1. cbn [fst]. f_equal. apply IH; lia.
Qed.

Lemma validcsr_rows c : ValidCSR c -> NonDecr (bin1 c) /\ Forall (fun x => 0 <= x < nbins c) (bin1 c).
Proof.
  intros Hv. destruct (validcsr_lens c Hv) as (L1 & L2 & L3). rewrite <- (pixels_rows c) by lia. split.
  - apply ssorted_rows, validcsr_sorted, Hv.
  - rewrite Forall_map, Forall_forall. intros p Hp. apply (validcsr_inrange c Hv) in Hp. lia.
Qed.

Theorem reindex_valid c cs : ValidCSR c -> 0 <= nchroms c -> 1 <= cs ->
  index_pixels_c cs (bin1 c) (nbins c) (nnz c) = Some (bin1_offset c) /\
  index_pixels (bin1 c) (nbins c) (nnz c) = Some (bin1_offset c) /\
  index_bins (bin_chrom c) (nchroms c) (nbins c) = Some (chrom_offset c).
Proof.
  intros Hv Hnc Hcs. destruct (validcsr_rows c Hv) as [Hnd Hrg]. destruct (validcsr_chroms c Hv) as [Hcn Hcr].
  destruct (validcsr_lens c Hv) as (L1 & _). pose proof (validcsr_nbins c Hv) as Lc.
  assert (Hpos : Forall (fun x => 0 <= x) (bin1 c)) by (eapply Forall_impl; [|exact Hrg]; cbn; intros; lia).
  assert (Hnb : 0 <= nbins c) by (rewrite <- Lc; apply zlen_nonneg).
  assert (Hcpos : Forall (fun x => 0 <= x) (bin_chrom c)) by (rewrite Forall_forall; intros x Hx; apply Hcr in Hx; lia).
  rewrite (validcsr_bin1_offset c Hv), (validcsr_chrom_offset c Hv), <- L1. repeat split.
  - now apply index_pixels_c_spec.
  - now apply index_pixels_spec.
  - rewrite <- Lc at 1. now apply index_bins_spec.
Qed.

Theorem validcsr_row_span c b k : ValidCSR c -> (k < length (bin1 c))%nat -> 0 <= b < nbins c ->
  (nth (Z.to_nat b) (bin1_offset c) 0 <= Z.of_nat k < nth (Z.to_nat (b + 1)) (bin1_offset c) 0
   <-> nth k (bin1 c) 0 = b).
Proof.
  intros Hv Hk Hb. destruct (validcsr_rows c Hv) as [Hnd _].
  rewrite (validcsr_bin1_offset c Hv).
  rewrite !offsets_of_nth by lia. rewrite !Z2Nat.id by lia. now apply csr_row_iff.
Qed.

Lemma combine_rcv px : combine (combine (map row px) (map col px)) (map val px) = px.
Proof.
  induction px as [|[[r c] v] t IH]; [reflexivity|]. cbn [map combine]. rewrite IH. reflexivity.
Qed.

(** what create() stores for a pixel table over a chromosome column, with the counting index where the
    code runs its loops *)
Definition stored (n_chroms : Z) (chroms : list Z) (px : list pixel) (symm : bool) : cooler :=
  mkCooler (zlen chroms) n_chroms chroms (map row px) (map col px) (map val px)
           (offsets_of (zlen chroms) (map row px)) (offsets_of n_chroms chroms) (zlen px) (sumZ (map val px)) symm.

Lemma pixels_of_stored n_chroms chroms px symm : pixels_of (stored n_chroms chroms px symm) = px.
Proof. apply combine_rcv. Qed.

Theorem create_stored n_chroms chroms px symm :
  0 <= n_chroms -> NonDecr chroms -> (forall x, In x chroms -> 0 <= x < n_chroms) ->
  SSorted px ->
  (forall p, In p px -> 0 <= row p < zlen chroms /\ 0 <= col p < zlen chroms) ->
  (symm = true -> forall p, In p px -> row p <= col p) ->
  create_model n_chroms chroms px symm = Some (stored n_chroms chroms px symm) /\
  ValidCSR (stored n_chroms chroms px symm).
Proof.
  intros Hnc Hcs Hcr Hs Hr Hu. split.
  - unfold create_model. rewrite index_bins_spec; [|assumption..|].
    + pose proof (index_pixels_spec (map row px) (zlen chroms)) as Hi. rewrite zlen_map in Hi.
      rewrite Hi; [reflexivity|apply zlen_nonneg|now apply ssorted_rows|].
      rewrite Forall_map, Forall_forall. intros p Hp. apply Hr in Hp. lia.
    + rewrite Forall_forall. intros x Hx. apply Hcr in Hx. lia.
  - unfold ValidCSR. rewrite pixels_of_stored. cbn. rewrite !zlen_map. repeat apply conj; auto.
Qed.

(** [create_stored] without the name of the stored collection, as C02 states it *)
Theorem create_valid n_chroms chroms px symm :
  0 <= n_chroms -> NonDecr chroms -> (forall x, In x chroms -> 0 <= x < n_chroms) ->
  SSorted px ->
  (forall p, In p px -> 0 <= row p < zlen chroms /\ 0 <= col p < zlen chroms) ->
  (symm = true -> forall p, In p px -> row p <= col p) ->
  exists c, create_model n_chroms chroms px symm = Some c /\ ValidCSR c /\ pixels_of c = px
            /\ nbins c = zlen chroms /\ nnz c = zlen px /\ symmetric_upper c = symm.
Proof.
  intros Hnc Hcs Hcr Hs Hr Hu. destruct (create_stored n_chroms chroms px symm) as [E Hv]; try assumption.
  exists (stored n_chroms chroms px symm). auto 8 using pixels_of_stored.
Qed.

(** the statement "whatever create() stores is valid" is false once the bounds check is switched
    off (as `cooler cload pairs` does): a strictly sorted upper-triangular stream with a bin id equal
    to nbins (known finding D2) is stored, indexed, and is not a valid collection *)
Theorem create_unchecked_refuted :
  exists nc chroms px, 0 <= nc /\ NonDecr chroms /\ (forall x, In x chroms -> 0 <= x < nc) /\
    SSorted px /\ (forall p, In p px -> row p <= col p) /\
    exists c, create_model nc chroms px true = Some c /\ ~ ValidCSR c.
Proof.
  exists 1, [0; 0], [((0, 1), 5); ((1, 2), 7)].
  split; [lia|]. split; [apply nondecr_b_spec; reflexivity|].
  split; [intros x [<-|[<-|[]]]; lia|].
  split; [apply ssorted_b_spec; reflexivity|].
  split; [intros p [<-|[<-|[]]]; cbn; lia|].
  eexists. split; [vm_compute; reflexivity|].
  rewrite <- valid_csr_b_spec. vm_compute. discriminate.
Qed.

(** loop invariant of write_pixels on one column: the first nnz stored values are what was written so far ([acc]);
    whatever lies behind them is cut off by the resize *)
Lemma write_chunk_exact col acc data : firstn (length acc) col = acc ->
  write_chunk (col, zlen acc) data = (acc ++ data, zlen (acc ++ data)).
Proof.
  intros H. unfold write_chunk. rewrite <- zlen_app. f_equal.
  assert (Hlen : (length acc <= length col)%nat) by (rewrite <- H at 1; rewrite firstn_length; lia).
  unfold write_at, resize, zlen. rewrite app_length, Nat2Z.id.
  rewrite skipn_all2 by (rewrite app_length, firstn_length, repeat_length; lia).
  rewrite firstn_app, firstn_firstn, firstn_length, app_nil_r.
  replace (Nat.min (length acc) _) with (length acc) by lia. replace (length acc - _)%nat with 0%nat by lia.
  cbn [firstn]. now rewrite H, app_nil_r.
Qed.

Lemma fold_write_chunks chunks : forall col acc, firstn (length acc) col = acc ->
  fold_left write_chunk chunks (col, zlen acc) =
  match chunks with
  | [] => (col, zlen acc)
  | _ => (acc ++ concat chunks, zlen (acc ++ concat chunks))
  end.
Proof.
  induction chunks as [|d t IH]; intros col acc H; [reflexivity|].
  cbn [fold_left]. rewrite write_chunk_exact by exact H.
  rewrite (IH (acc ++ d) (acc ++ d)) by apply firstn_all.
  destruct t; cbn [concat]; rewrite ?app_nil_r, ?app_assoc; reflexivity.
Qed.

(** pixel columns: whatever the preallocated size and however the stream is cut into chunks
    (no chunk at all and empty chunks included), the stored column is the concatenation of the
    chunks and its length is the returned nnz *)
Theorem write_pixels_col_spec init chunks :
  write_pixels_col init chunks = (concat chunks, zlen (concat chunks)).
Proof.
  unfold write_pixels_col.
  change 0 with (zlen (@nil Z)) at 2.
  rewrite (fold_write_chunks chunks _ []) by reflexivity.
  destruct chunks as [|d t]; [reflexivity|].
  cbn [app]. destruct (zlen (concat (d :: t)) =? 0) eqn:E; [|reflexivity].
  assert (H : concat (d :: t) = []) by (unfold zlen in E; destruct (concat (d :: t)); [reflexivity|cbn [length] in E; lia]).
  now rewrite H.
Qed.

(** the code before the repair of defect D21 (no final truncation): an empty stream left the
    preallocated rows in place *)
Theorem write_pixels_col_old_refuted :
  exists init chunks, write_pixels_col_old init chunks <> (concat chunks, zlen (concat chunks)).
Proof. exists 3, []. vm_compute. discriminate. Qed.

Lemma sumZ_concat (f : pixel -> Z) chunks :
  sumZ (map (fun ch => sumZ (map f ch)) chunks) = sumZ (map f (concat chunks)).
Proof.
  induction chunks as [|c t IH]; [reflexivity|]. cbn [map concat]. rewrite map_app, sumZ_app, <- IH. reflexivity.
Qed.

Theorem create_chunked_eq n_chroms chroms chunks symm :
  create_chunked n_chroms chroms chunks symm = create_model n_chroms chroms (concat chunks) symm.
Proof.
  unfold create_chunked, create_model. rewrite !write_pixels_col_spec.
  rewrite <- !concat_map, !zlen_map, sumZ_concat. reflexivity.
Qed.

(** the recorded bin type is "fixed" exactly when a bin size is recorded, and a recorded bin
    size is true of the stored table (C20): every chromosome is the ideal b-tiling *)
Theorem info_consistent blocks fixed bs :
  ValidBlocks blocks -> info_bins (concat blocks) = (fixed, bs) ->
  (fixed = true <-> exists b, bs = Some b) /\
  (fixed = false <-> bs = None) /\
  bs = get_binsize (concat blocks) /\
  forall b, bs = Some b ->
    1 <= b /\ forall i blk, nth_error blocks i = Some blk ->
      blk = ideal_chrom (Z.of_nat i) (chrom_end blk) b.
Proof.
  intros HV H. unfold info_bins in H.
  destruct (get_binsize (concat blocks)) as [b0|] eqn:E; inversion H; subst.
  - split; [split; [eauto|reflexivity]|]. split; [split; discriminate|]. split; [reflexivity|].
    intros b Hb. inversion Hb; subst. now apply binsize_truthful.
  - split; [split; [discriminate|intros [b Hb]; discriminate]|]. split; [tauto|]. split; [reflexivity|].
    intros b Hb. discriminate.
Qed.

(** the hypotheses of [create_valid] as one predicate on what a producer hands to create() *)
Definition GoodStream (s : Z * list Z * list pixel * bool) : Prop :=
  let '(nc, chroms, px, symm) := s in
  0 <= nc /\ NonDecr chroms /\ (forall x, In x chroms -> 0 <= x < nc) /\
  SSorted px /\
  (forall p, In p px -> 0 <= row p < zlen chroms /\ 0 <= col p < zlen chroms) /\
  (symm = true -> forall p, In p px -> row p <= col p).

(** ValidCSR along a history, GIVEN that every operation hands create() a good stream.  The producers stay
    abstract here ([plan], [producers_ok]); nothing instantiates this section.  Proofs/HistoryProofs.v proves the
    invariant for the modelled producers themselves, with [producers_ok] replaced by their theorems
    ([Step], [history_valid_all]), directly from [create_stored] and not through [history_valid]. *)
Section History.
  (** an operation (create, load, merge, coarsen, one zoom level, one cell of a scool ...)
      reads the collections written so far and hands create() a bin table and a pixel stream *)
  Variable op : Type.
  Variable plan : op -> list cooler -> Z * list Z * list pixel * bool.
  (** the producer theorems (C06-C09, C17): from valid inputs every operation streams strictly
      sorted, in-range, upper-triangular pixels over a valid bin table *)
  Hypothesis producers_ok : forall o st, Forall ValidCSR st -> GoodStream (plan o st).

  Definition step (st : list cooler) (o : op) : list cooler :=
    let '(nc, chroms, px, symm) := plan o st in
    match create_model nc chroms px symm with
    | Some c => st ++ [c]
    | None => st
    end.
  Definition run_history (ops : list op) (init : list cooler) : list cooler := fold_left step ops init.

  Theorem history_valid ops : forall init,
    Forall ValidCSR init -> Forall ValidCSR (run_history ops init) /\
    (length (run_history ops init) = length init + length ops)%nat.
  Proof.
    unfold run_history. induction ops as [|o t IH]; intros init Hi; cbn [fold_left length].
    - split; [exact Hi|lia].
    - pose proof (producers_ok o init Hi) as Hg. unfold step at 2 4.
      destruct (plan o init) as [[[nc chroms] px] symm]. cbn in Hg.
      destruct Hg as (H1 & H2 & H3 & H4 & H5 & H6).
      destruct (create_valid nc chroms px symm H1 H2 H3 H4 H5 H6) as (c & Ec & Hv & _).
      rewrite Ec.
      assert (Hi' : Forall ValidCSR (init ++ [c])) by (apply Forall_app; split; [exact Hi|constructor; [exact Hv|constructor]]).
      destruct (IH _ Hi') as [IH1 IH2]. split; [exact IH1|]. rewrite IH2, app_length. cbn [length]. lia.
  Qed.
End History.

(** Tie between the tail of util.parse_region as TRANSLATED from util.py on every run ([Gen.parse_region_tail]: defaults of an
    open start / end, the two refusals with the comparison expressions of the source) and the two hand models of it:
    [Extent.parse_region] (C04: chromosome ids, lengths always known) and [Text.check_region] (C19: names, optional
    chromsizes). *)
From Cooler Require Import Model.Extent Gen.Translated.
From Cooler Require Model.Text.
From Coq Require Import Lia.
Open Scope Z_scope.

Theorem gen_parse_region_is_extent_model : forall sizes c s e,
  parse_region sizes c s e =
  match nth_error sizes c with
  | None => None
  | Some L => match Gen.parse_region_tail s e (Some L) with None => None | Some (s', e') => Some (c, s', e') end
  end.
Proof.
  intros sizes c s e. unfold parse_region, Gen.parse_region_tail, Gen.pr_end_before_start, Gen.pr_out_of_bounds.
  destruct (nth_error sizes c) as [L|]; [|reflexivity].
  destruct e as [e|]; cbv beta iota zeta; rewrite Z.gtb_ltb; (destruct (_ <? _); [reflexivity|]); now destruct (_ || _).
Qed.

Theorem gen_parse_region_is_text_model : forall chrom os oe cs,
  Text.check_region (chrom, os, oe) cs =
  match (match cs with
         | None => Some None
         | Some t => match Text.lookup chrom t with None => None | Some l => Some (Some l) end
         end) with
  | None => None
  | Some clen => match Gen.parse_region_tail os oe clen with None => None | Some (s', e') => Some (chrom, s', e') end
  end.
Proof.
  intros chrom os oe cs. unfold Text.check_region, Gen.parse_region_tail, Gen.pr_end_before_start, Gen.pr_out_of_bounds.
  (* the length: of a known name, none for an unknown name (refused), none without a table;
     then the sides differ in [e >? l] for [l <? e] and in where the name is attached to the pair *)
  destruct cs as [t|]; [destruct (Text.lookup chrom t) as [l|]; [|reflexivity]|].
  - destruct oe as [e|]; cbv beta iota zeta; rewrite Z.gtb_ltb; (destruct (_ <? _); [reflexivity|]); now destruct (_ || _).
  - destruct oe as [e|]; [|reflexivity]. destruct (_ <? _); [reflexivity|]. now destruct (_ || _).
Qed.

(** C12 for any scalar type: the cell theorems of the generic balanced model of Model/BalancedF.v, and for binary64
    the weight [fwt], the NaN propagation through the IEEE-754 operations and the error statements.  Props/C12.v
    instantiates the cell theorems at the rationals and at primitive floats; the float instances are equalities
    between primitive-float terms, both sides evaluated by the same binary64 operations, so they hold bit for bit. *)
From Cooler Require Import Model.Query Model.BalancedF Proofs.PixelsProofs Proofs.QueryProofs Proofs.SpansProofs Proofs.QueryMain.
From Coq Require Import ZifyBool SpecFloat FloatOps FloatAxioms.

(** [S] the scalar type of the weights, [sinv] its reciprocal, [cell wr wc v] the balanced value of a raw count [v]
    under row weight [wr] and column weight [wc], [snan] the scalar a missing entry reads as *)
Section Generic.
  Context {S : Type}.
  Variable sinv : S -> S.
  Variable cell : S -> S -> Z -> S.
  Variable snan : S.

  Definition gadj (divisive : bool) (x : S) : S := if divisive then sinv x else x.
  (** the weight bin k contributes: the stored one, or its reciprocal for divisive weights *)
  Definition gwt (w : list S) (divisive : bool) (k : Z) : S := gadj divisive (gnth snan w k).

  Lemma gnth_gbias w lo hi dv k : 0 <= lo -> lo <= hi -> hi <= zlen w -> 0 <= k < hi - lo ->
    gnth snan (gbias sinv w lo hi dv) k = gwt w dv (lo + k).
  Proof.
    intros Hlo Hlh Hhi Hk. unfold gnth, gbias, gwt, gadj, gnth.
    rewrite (nth_map_lt _ _ _ _ snan) by (rewrite slice_length; lia). now rewrite nth_slice by lia.
  Qed.
  Lemma gbias_length w lo hi dv : 0 <= lo -> lo <= hi -> hi <= zlen w -> List.length (gbias sinv w lo hi dv) = Z.to_nat (hi - lo).
  Proof. intros. unfold gbias. rewrite map_length. now apply slice_length. Qed.
  (** column weights always come from the column range (bias2 = bias1 only when the ranges coincide) *)
  Lemma gbias2_is_column_bias w i0 i1 j0 j1 dv : gbias2_of sinv w (i0, i1, j0, j1) dv = gbias sinv w j0 j1 dv.
  Proof.
    unfold gbias2_of. destruct ((i0 =? j0) && (i1 =? j1)) eqn:E; [|reflexivity].
    assert (i0 = j0 /\ i1 = j1) as [-> ->] by lia. reflexivity.
  Qed.

  Theorem gbalanced_dense_cell d w i0 i1 j0 j1 dv a b :
    0 <= i0 -> i0 <= i1 -> i1 <= zlen w -> 0 <= j0 -> j0 <= j1 -> j1 <= zlen w ->
    zlen d = i1 - i0 -> (forall r, In r d -> zlen r = j1 - j0) ->
    0 <= a < i1 - i0 -> 0 <= b < j1 - j0 ->
    nth (Z.to_nat b) (nth (Z.to_nat a) (gbalanced_dense sinv cell d w (i0, i1, j0, j1) dv) []) snan =
    cell (gwt w dv (i0 + a)) (gwt w dv (j0 + b)) (nth (Z.to_nat b) (nth (Z.to_nat a) d []) 0).
  Proof.
    intros Hi0 Hi Hi1 Hj0 Hj Hj1 Hd Hrows Ha Hb. unfold gbalanced_dense. rewrite gbias2_is_column_bias.
    assert (Hla : (Z.to_nat a < List.length d)%nat) by (unfold zlen in Hd; lia).
    rewrite nth_map_combine with (da := @nil Z) (db := snan) by (rewrite ?gbias_length by assumption; unfold zlen in Hd; lia).
    cbn [fst snd].
    assert (Hrow : zlen (nth (Z.to_nat a) d []) = j1 - j0) by (apply Hrows, nth_In; exact Hla).
    rewrite nth_map_combine with (da := 0) (db := snan)
      by (rewrite ?gbias_length by assumption; unfold zlen in Hrow; lia).
    cbn [fst snd]. change (nth (Z.to_nat a) (gbias sinv w i0 i1 dv) snan) with (gnth snan (gbias sinv w i0 i1 dv) a).
    change (nth (Z.to_nat b) (gbias sinv w j0 j1 dv) snan) with (gnth snan (gbias sinv w j0 j1 dv) b).
    now rewrite !gnth_gbias by assumption.
  Qed.

  Theorem gbalanced_sparse_spec out w i0 i1 j0 j1 dv :
    0 <= i0 -> i0 <= i1 -> i1 <= zlen w -> 0 <= j0 -> j0 <= j1 -> j1 <= zlen w ->
    (forall r, In r out -> in_window (i0, i1, j0, j1) (snd r) = true) ->
    gbalanced_sparse sinv cell snan out w (i0, i1, j0, j1) dv =
    map (fun r => (fst (snd r), cell (gwt w dv (row (snd r))) (gwt w dv (col (snd r))) (val (snd r)))) out.
  Proof.
    intros Hi0 Hi Hi1 Hj0 Hj Hj1 Hin. unfold gbalanced_sparse. rewrite gbias2_is_column_bias.
    apply map_ext_in. intros r Hr. apply Hin in Hr. unfold in_window in Hr. cbv zeta. unfold ipixel, pixel in *.
    assert (Hrr : i0 <= row (snd r) < i1 /\ j0 <= col (snd r) < j1) by lia. destruct Hrr as [Hrr Hcc].
    rewrite (gnth_gbias w i0 i1 dv (row (snd r) - i0) Hi0 Hi Hi1), (gnth_gbias w j0 j1 dv (col (snd r) - j0) Hj0 Hj Hj1) by lia.
    replace (i0 + (row (snd r) - i0)) with (row (snd r)) by lia. replace (j0 + (col (snd r) - j0)) with (col (snd r)) by lia. reflexivity.
  Qed.

  Theorem gbalanced_pixels_spec out w dv :
    gbalanced_pixels sinv cell snan out w dv =
    map (fun r => (r, cell (gwt w dv (row (snd r))) (gwt w dv (col (snd r))) (val (snd r)))) out.
  Proof. unfold gbalanced_pixels, gwt, gadj. apply map_ext. intro r. destruct dv; reflexivity. Qed.
  (** the balanced dense query on a stored symmetric-upper table, every window and chunk size (composition with C03) *)
  Theorem gdense_balanced_full n epx off cs w dv i0 i1 j0 j1 :
    ValidCSR n epx off -> Upper epx -> 1 <= cs ->
    0 <= i0 -> i0 <= i1 -> i1 <= n -> 0 <= j0 -> j0 <= j1 -> j1 <= n -> zlen w = n ->
    exists out, fill_lower_query epx off (get_spans off cs) (i0, i1, j0, j1) = Some out /\
      forall a b, 0 <= a < i1 - i0 -> 0 <= b < j1 - j0 ->
        nth (Z.to_nat b) (nth (Z.to_nat a) (gbalanced_dense sinv cell (dense_of out (i0, i1, j0, j1)) w (i0, i1, j0, j1) dv) []) snan =
        cell (gwt w dv (i0 + a)) (gwt w dv (j0 + b)) (symm (map snd epx) (i0 + a) (j0 + b)).
  Proof.
    intros HV HU Hcs Hi0 Hi Hi1 Hj0 Hj Hj1 Hw. rewrite get_spans_eq.
    destruct (dense_eq_slice n epx off HV (linspace_cuts cs) (linspace_admissible cs Hcs) i0 i1 j0 j1) as [out [Ho Hd]]; try assumption.
    exists out. split; [exact Ho|]. intros a b Ha Hb. rewrite Hd. subst n.
    rewrite gbalanced_dense_cell; try assumption.
    - now rewrite !nth_map_zrange, !Z2Nat.id by lia.
    - unfold zlen. rewrite map_length, zrange_length. lia.
    - intros r Hr. apply in_map_iff in Hr. destruct Hr as [i [<- _]]. unfold zlen. rewrite map_length, zrange_length. lia.
  Qed.
End Generic.

Definition fwt : list float -> bool -> Z -> float := gwt f_inv PrimFloat.nan.

(** a missing column is an error; a balanced request never yields the raw records *)
Theorem fmissing_column_is_error epx off cs fill form dv bb :
  fmatrix_balanced epx off cs fill form (Some None) dv bb = None.
Proof. unfold fmatrix_balanced. destruct (matrix_records epx off cs fill form bb); reflexivity. Qed.
Theorem fbalanced_never_raw epx off cs fill form w dv bb out :
  fmatrix_balanced epx off cs fill form (Some w) dv bb <> Some (FRaw out).
Proof.
  unfold fmatrix_balanced. destruct (matrix_records epx off cs fill form bb); [|discriminate].
  destruct w; [|discriminate]. destruct form; discriminate.
Qed.

(** NaN propagates through the IEEE semantics of the primitive operations
    (standard-library statements mul_spec / div_spec of Floats.FloatAxioms) *)
Definition is_nan_f (x : float) : Prop := Prim2SF x = S754_nan.
Lemma mul_nan_l x y : is_nan_f x -> is_nan_f (PrimFloat.mul x y).
Proof. unfold is_nan_f. intro H. rewrite mul_spec, H. reflexivity. Qed.
Lemma mul_nan_r x y : is_nan_f y -> is_nan_f (PrimFloat.mul x y).
Proof. unfold is_nan_f. intro H. rewrite mul_spec, H. destruct (Prim2SF x); reflexivity. Qed.
Lemma inv_nan x : is_nan_f x -> is_nan_f (f_inv x).
Proof. unfold is_nan_f, f_inv. intro H. rewrite div_spec, H. destruct (Prim2SF PrimFloat.one); reflexivity. Qed.
Lemma fwt_masked w dv k : is_nan_f (gnth PrimFloat.nan w k) -> is_nan_f (fwt w dv k).
Proof. unfold fwt, gwt, gadj. intro H. destruct dv; [now apply inv_nan|exact H]. Qed.
Theorem fmasked_bin_gives_nan w dv k x v :
  is_nan_f (gnth PrimFloat.nan w k) ->
  is_nan_f (f_cell_dense (fwt w dv k) x v) /\ is_nan_f (f_cell_dense x (fwt w dv k) v) /\
  is_nan_f (f_cell_entry (fwt w dv k) x v) /\ is_nan_f (f_cell_entry x (fwt w dv k) v).
Proof.
  intro H. apply (fwt_masked w dv k) in H. unfold f_cell_dense, f_cell_entry. repeat split.
  - apply mul_nan_r, mul_nan_l, H.
  - apply mul_nan_r, mul_nan_r, H.
  - apply mul_nan_l, mul_nan_l, H.
  - apply mul_nan_l, mul_nan_r, H.
Qed.

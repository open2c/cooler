(** binary64 quotients in the binning code: [int(np.floor(a / b))] and [int(np.ceil(a / b))] are computed with float64
    true division; Proofs/FloatDiv.v (Flocq) shows that for operands below 2^53 they are the exact integer floor and
    ceiling divisions that the models use.  This file restates the ceiling with the models' [cdiv]. *)
From Cooler Require Import Model.Base Proofs.BinsProofs Proofs.FloatDiv.
From Coq Require Import ZArith Lia.
From Flocq Require Import Core.
Open Scope Z_scope.

Theorem ceil_fdiv_is_cdiv e b : 0 <= e < 2^53 -> 0 < b < 2^53 -> Zceil (fdiv e b) = cdiv e b.
Proof.
  intros He Hb. rewrite ceil_fdiv_exact by assumption. symmetry. apply cdiv_eq; [lia|].
  pose proof (Z.mul_div_le (- e) b). pose proof (Z.mul_succ_div_gt (- e) b). lia.
Qed.

(** Proofs about the HDF5 object-store model (Model/H5.v): path resolution is monotone under
    link additions ([world_le]), the h5py primitives and cooler's _copy only add links (frame), hard
    links denote the same object, a copy dumps exactly as its source, an unlink is invisible to the
    traversals that avoid the removed slot ([walk_av], for mv), recognition, and the listing: exact
    whenever it returns, and total on acyclic worlds without dangling members. *)
From Cooler Require Import Model.H5.
From Coq Require Import Lia.
Module S := Coq.Strings.String.
(* never let simpl/cbn unfold a 64-step traversal *)
Global Opaque FUEL VISIT_FUEL.

Lemma assoc_ins_same : forall X n (x : X) l, assoc n (ins_sorted n x l) = Some x.
Proof.
  induction l as [|[m y] r IH]; simpl.
  - now rewrite S.eqb_refl.
  - destruct (S.eqb n m) eqn:E; simpl.
    + now rewrite S.eqb_refl.
    + destruct (S.ltb n m); simpl.
      * now rewrite S.eqb_refl.
      * now rewrite E.
Qed.

Lemma assoc_ins_other : forall X n m (x : X) l, n <> m -> assoc m (ins_sorted n x l) = assoc m l.
Proof.
  induction l as [|[k y] r IH]; intros Hnm; simpl.
  - destruct (S.eqb m n) eqn:E; auto. apply S.eqb_eq in E. congruence.
  - destruct (S.eqb n k) eqn:E; simpl.
    + apply S.eqb_eq in E; subst k.
      destruct (S.eqb m n) eqn:E2; auto. apply S.eqb_eq in E2. congruence.
    + destruct (S.ltb n k); simpl.
      * destruct (S.eqb m n) eqn:E2; auto. apply S.eqb_eq in E2. congruence.
      * destruct (S.eqb m k); auto.
Qed.

Lemma assoc_remove_same : forall X n (l : list (string * X)), assoc n (remove_key n l) = None.
Proof.
  induction l as [|[m y] r IH]; simpl; auto.
  destruct (S.eqb n m) eqn:E; simpl; auto. now rewrite E.
Qed.

Lemma assoc_remove_other : forall X n m (l : list (string * X)), n <> m -> assoc m (remove_key n l) = assoc m l.
Proof.
  induction l as [|[k y] r IH]; intros Hnm; simpl; auto.
  destruct (S.eqb n k) eqn:E; simpl.
  - apply S.eqb_eq in E; subst k.
    destruct (S.eqb m n) eqn:E2; auto. apply S.eqb_eq in E2. congruence.
  - destruct (S.eqb m k); auto.
Qed.

Lemma nth_error_upd_same : forall X k (x : X) l, (k < List.length l)%nat -> nth_error (upd k x l) k = Some x.
Proof.
  induction k; destruct l; simpl; intros; try lia; auto. apply IHk. lia.
Qed.

Lemma nth_error_upd_other : forall X k j (x : X) l, k <> j -> nth_error (upd k x l) j = nth_error l j.
Proof.
  induction k; destruct l; destruct j; simpl; intros; try congruence; auto.
Qed.

Lemma length_upd : forall X k (x : X) l, List.length (upd k x l) = List.length l.
Proof. induction k; destruct l; simpl; auto. Qed.

Lemma get_set_same : forall w f s, get_store (set_store w f s) f = s.
Proof. destruct f; reflexivity. Qed.

Lemma get_set_other : forall w f g s, f <> g -> get_store (set_store w f s) g = get_store w g.
Proof. destruct f, g; simpl; congruence. Qed.

Lemma fid_eqb_eq : forall a b, fid_eqb a b = true <-> a = b.
Proof. destruct a, b; simpl; split; congruence. Qed.

Lemma fid_dec : forall a b : fid, {a = b} + {a <> b}.
Proof. decide equality. Qed.

Definition links_le (ls ls' : list (string * link)) : Prop :=
  forall n l, assoc n ls = Some l -> assoc n ls' = Some l.

Definition obj_le (x y : obj) : Prop :=
  match x, y with
  | Group a ls, Group a' ls' => a = a' /\ links_le ls ls'
  | Dataset d, Dataset d' => d = d'
  | _, _ => False
  end.

Definition store_le (s s' : option store) : Prop :=
  match s with
  | None => True
  | Some st => exists st', s' = Some st' /\
                 forall o x, nth_error st o = Some x -> exists y, nth_error st' o = Some y /\ obj_le x y
  end.

Definition world_le (w w' : world) : Prop := forall f, store_le (get_store w f) (get_store w' f).

Lemma obj_le_refl : forall x, obj_le x x.
Proof. destruct x; simpl; auto. split; auto. red; auto. Qed.

Lemma obj_le_trans : forall x y z, obj_le x y -> obj_le y z -> obj_le x z.
Proof.
  destruct x, y, z; simpl; try tauto; try congruence.
  intros [-> H1] [-> H2]. split; auto. red; intros. apply H2, H1; auto.
Qed.

Lemma store_le_refl : forall s, store_le s s.
Proof.
  destruct s; simpl; auto. eexists; split; eauto. intros. eexists; split; eauto. apply obj_le_refl.
Qed.

Lemma store_le_trans : forall a b c, store_le a b -> store_le b c -> store_le a c.
Proof.
  intros a b c H1 H2. unfold store_le in *. destruct a; auto.
  destruct H1 as (sb & -> & Hb). destruct H2 as (sc & -> & Hc).
  eexists; split; eauto. intros o x Hx.
  destruct (Hb _ _ Hx) as (y & Hy & L1). destruct (Hc _ _ Hy) as (z & Hz & L2).
  exists z; split; auto. eapply obj_le_trans; eauto.
Qed.

Lemma world_le_refl : forall w, world_le w w.
Proof. intros w f. apply store_le_refl. Qed.

Lemma world_le_trans : forall a b c, world_le a b -> world_le b c -> world_le a c.
Proof. intros a b c H1 H2 f. exact (store_le_trans _ _ _ (H1 f) (H2 f)). Qed.

Lemma world_le_obj : forall w w' f o x, world_le w w' -> obj_at w f o = Some x ->
  exists y, obj_at w' f o = Some y /\ obj_le x y.
Proof.
  unfold obj_at; intros w w' f o x H Hx. specialize (H f). unfold store_le in H.
  destruct (get_store w f); try discriminate.
  destruct H as (st' & E & Hst). rewrite E. auto.
Qed.

Lemma world_le_exists : forall w w' f, world_le w w' -> file_exists w f = true -> file_exists w' f = true.
Proof.
  unfold file_exists; intros w w' f H. specialize (H f). unfold store_le in H.
  destruct (get_store w f); try discriminate. destruct H as (st' & -> & _). auto.
Qed.

Lemma world_le_lookup : forall w w' f o n l, world_le w w' ->
  lookup_link w f o n = Some l -> lookup_link w' f o n = Some l.
Proof.
  unfold lookup_link; intros w w' f o n l H Hl.
  destruct (obj_at w f o) as [[a ls|d]|] eqn:E; try discriminate.
  destruct (world_le_obj _ _ _ _ _ H E) as (y & Ey & Ly). rewrite Ey.
  destruct y; simpl in Ly; try tauto. destruct Ly as [_ Ly]. auto.
Qed.

(** [kept av w w']: every file is still there, and every link outside the slots [av] can still be looked up.
    That is all a traversal that found its object has read.  It is the weakest of the preservation relations:
    [world_le] gives it for every [av] (world_le_kept) but also keeps attributes and payloads; ScoolProofs.keeps
    is [kept nowhere]'s link clause plus the datasets.  Unlike those it survives an unlink ([av] = the slot). *)
Definition kept (av : fid -> nat -> string -> bool) (w w' : world) : Prop :=
  (forall f, file_exists w f = true -> file_exists w' f = true) /\
  (forall f o n l, av f o n = false -> lookup_link w f o n = Some l -> lookup_link w' f o n = Some l).
(** no slot excepted *)
Definition nowhere (f : fid) (o : nat) (n : string) : bool := false.

Lemma kept_trans : forall av a b c, kept av a b -> kept av b c -> kept av a c.
Proof. intros av a b c [H1 H2] [H3 H4]. split; eauto. Qed.

Lemma world_le_kept : forall av w w', world_le w w' -> kept av w w'.
Proof. intros av w w' H. split; intros; [eapply world_le_exists|eapply world_le_lookup]; eauto. Qed.

Lemma kept_refl : forall av w, kept av w w.
Proof. intros. apply world_le_kept, world_le_refl. Qed.

Lemma walk_kept : forall k k' w w' x x' f o p f1 o1, (k <= k')%nat -> kept nowhere w w' ->
  walk k w x f o p = Found f1 o1 -> walk k' w' x' f o p = Found f1 o1.
Proof.
  induction k; simpl; intros k' w w' x x' f o p f1 o1 Hk K H; try discriminate.
  destruct k'; [lia|]. simpl. destruct p as [|n rest]; auto.
  destruct (obj_at w f o) as [[a ls|d]|] eqn:E; try discriminate.
  destruct (assoc n ls) as [l|] eqn:El; try discriminate.
  assert (lookup_link w' f o n = Some l) as Hl by (apply K; auto; unfold lookup_link; now rewrite E).
  unfold lookup_link in Hl. destruct (obj_at w' f o) as [[a' ls'|]|]; try discriminate. rewrite Hl.
  assert (k <= k')%nat by lia.
  destruct l; eauto. destruct (file_exists w f0) eqn:Ex; try discriminate. rewrite (proj1 K _ Ex). eauto.
Qed.

Lemma walk_found_mono : forall k w w' x f o p f1 o1, world_le w w' ->
  walk k w x f o p = Found f1 o1 -> walk k w' x f o p = Found f1 o1.
Proof. intros. eapply walk_kept; eauto using world_le_kept. Qed.

Lemma walk_found_flag : forall k w x x' f o p f1 o1,
  walk k w x f o p = Found f1 o1 -> walk k w x' f o p = Found f1 o1.
Proof. intros. eapply walk_kept; eauto using kept_refl. Qed.

Lemma walk_found_det : forall k1 k2 w x1 x2 f o p a1 b1 a2 b2,
  walk k1 w x1 f o p = Found a1 b1 -> walk k2 w x2 f o p = Found a2 b2 -> a1 = a2 /\ b1 = b2.
Proof.
  intros k1 k2 w x1 x2 f o p a1 b1 a2 b2 H1 H2.
  apply (walk_kept _ (k1 + k2) _ w _ false) in H1; [|lia|apply kept_refl].
  apply (walk_kept _ (k1 + k2) _ w _ false) in H2; [|lia|apply kept_refl]. rewrite H1 in H2. now injection H2.
Qed.

Lemma follow_found_mono : forall w w' f l f1 o1, world_le w w' ->
  follow w f l = Found f1 o1 -> follow w' f l = Found f1 o1.
Proof.
  intros w w' f l f1 o1 H. unfold follow. generalize FUEL; intro K.
  destruct l as [o'|q|f' q]; intro Hf.
  - exact Hf.
  - eapply walk_found_mono; eauto.
  - destruct (file_exists w f') eqn:Ex; try discriminate.
    rewrite (world_le_exists _ _ _ H Ex). eapply walk_found_mono; eauto.
Qed.

(** the unbounded reading of path resolution: some budget suffices *)
Definition resolves_from (w : world) (f : fid) (o : nat) (p : path) (f1 : fid) (o1 : nat) : Prop :=
  exists k, walk k w false f o p = Found f1 o1.
Definition resolves (w : world) (f : fid) (p : path) (f1 : fid) (o1 : nat) : Prop :=
  resolves_from w f O p f1 o1.

Lemma resolve_resolves : forall w f p f1 o1, resolve w f p = Found f1 o1 -> resolves w f p f1 o1.
Proof. intros w f p f1 o1 H. exists FUEL. exact H. Qed.

Lemma resolves_mono : forall w w' f o p f1 o1, world_le w w' ->
  resolves_from w f o p f1 o1 -> resolves_from w' f o p f1 o1.
Proof. intros w w' f o p f1 o1 H [k Hk]. exists k. eapply walk_found_mono; eauto. Qed.

Lemma walk_app : forall k1 w x f o p f1 o1, walk k1 w x f o p = Found f1 o1 ->
  forall k2 x2 r f2 o2, walk k2 w x2 f1 o1 r = Found f2 o2 ->
  walk (k1 + k2) w x f o (p ++ r) = Found f2 o2.
Proof.
  induction k1; intros w x f o p f1 o1 H1 k2 x2 r f2 o2 H2; [simpl in H1; discriminate|].
  destruct p as [|n rest].
  - simpl in H1. inversion H1; subst.
    change ([] ++ r) with r. apply walk_kept with (k := k2) (w := w) (x := x2); auto using kept_refl. lia.
  - simpl in H1. change (S k1 + k2)%nat with (S (k1 + k2)). simpl.
    destruct (obj_at w f o) as [[a ls|d]|]; try discriminate.
    destruct (assoc n ls) as [l|]; try discriminate. destruct l.
    + eapply IHk1; eauto.
    + rewrite app_assoc. eapply IHk1; eauto.
    + destruct (file_exists w f0); try discriminate. rewrite app_assoc. eapply IHk1; eauto.
Qed.

Lemma resolves_step : forall w f o n l rest f1 o1 f2 o2,
  lookup_link w f o n = Some l -> follow w f l = Found f1 o1 ->
  resolves_from w f1 o1 rest f2 o2 -> resolves_from w f o (n :: rest) f2 o2.
Proof.
  intros w f o n l rest f1 o1 f2 o2 Hl Hf [k Hk].
  unfold lookup_link in Hl.
  destruct (obj_at w f o) as [[a ls|d]|] eqn:E; try discriminate.
  revert Hf. unfold follow. generalize FUEL; intro K.
  destruct l as [o'|q|f' q]; intro Hf.
  - inversion Hf; subst. exists (S k). simpl. rewrite E, Hl. exact Hk.
  - exists (S (K + k)). simpl. rewrite E, Hl. eapply walk_app; eauto.
  - destruct (file_exists w f') eqn:Ex; try discriminate.
    exists (S (K + k)). simpl. rewrite E, Hl, Ex.
    eapply walk_app; eauto.
Qed.

Lemma walk_app_inv : forall k w x f o p r f2 o2, walk k w x f o (p ++ r) = Found f2 o2 ->
  exists f1 o1 x', walk k w x f o p = Found f1 o1 /\ walk k w x' f1 o1 r = Found f2 o2.
Proof.
  induction k; intros w x f o p r f2 o2 H; [simpl in H; discriminate|].
  destruct p as [|n rest]; [exists f, o, x; split; [reflexivity|exact H]|]. simpl in H.
  destruct (obj_at w f o) as [[a ls|d]|] eqn:Eo; try discriminate.
  (* whatever the link, the walk goes on with budget k on a path that still ends in r, where the
     induction hypothesis splits it; the second half is lifted back to budget S k *)
  destruct (assoc n ls) as [[o'|q|f' q]|] eqn:El; try discriminate;
    try (destruct (file_exists w f') eqn:Ex; [|discriminate]); rewrite ?app_assoc in H;
    destruct (IHk _ _ _ _ _ _ _ _ H) as (f1 & o1 & x' & H1 & H2);
    exists f1, o1, x'; (split; [simpl; rewrite Eo, El; try rewrite Ex; exact H1|apply walk_kept with (k := k) (w := w) (x := x'); auto using kept_refl]).
Qed.

Lemma resolves_step_inv : forall w f o n rest f2 o2, resolves_from w f o (n :: rest) f2 o2 ->
  exists l, lookup_link w f o n = Some l /\
    forall f1 o1, follow w f l = Found f1 o1 -> resolves_from w f1 o1 rest f2 o2.
Proof.
  intros w f o n rest f2 o2 [[|j] Hw]; [discriminate|]. simpl in Hw. unfold lookup_link.
  destruct (obj_at w f o) as [[a ls|d]|]; try discriminate.
  destruct (assoc n ls) as [l|]; try discriminate. exists l. split; auto.
  unfold follow. generalize FUEL; intros K f1 o1 Ef. exists j.
  (* a soft or external link: the walk of its path followed by [rest] splits after that path,
     and what the first half found is what [follow] found *)
  destruct l as [o'|q|f' q]; [injection Ef as <- <-; exact Hw| |destruct (file_exists w f'); [|discriminate]];
    destruct (walk_app_inv _ _ _ _ _ _ _ _ _ Hw) as (fa & oa & x' & H1 & H2);
    destruct (walk_found_det _ _ _ _ _ _ _ _ _ _ _ _ H1 Ef) as [-> ->]; eapply walk_found_flag; eauto.
Qed.

Lemma world_le_set : forall w f st st',
  get_store w f = Some st -> store_le (Some st) (Some st') -> world_le w (set_store w f (Some st')).
Proof.
  intros w f st st' E H g. destruct (fid_dec f g) as [<-|N].
  - rewrite get_set_same, E. exact H.
  - rewrite get_set_other by auto. apply store_le_refl.
Qed.

Lemma world_le_create : forall w f st', get_store w f = None -> world_le w (set_store w f (Some st')).
Proof.
  intros w f st' E g. destruct (fid_dec f g) as [<-|N].
  - rewrite E. simpl. auto.
  - rewrite get_set_other by auto. apply store_le_refl.
Qed.

Lemma store_le_app : forall st ext, store_le (Some st) (Some (st ++ ext)).
Proof.
  intros. eexists; split; eauto. intros o x Hx. exists x; split; [|apply obj_le_refl].
  rewrite nth_error_app1; auto. apply nth_error_Some. congruence.
Qed.

Lemma store_le_upd : forall st o x y, nth_error st o = Some x -> obj_le x y ->
  store_le (Some st) (Some (upd o y st)).
Proof.
  intros st o x y Hx Hle. eexists; split; eauto. intros o' x' Hx'.
  destruct (Nat.eq_dec o o') as [<-|N].
  - rewrite nth_error_upd_same by (apply nth_error_Some; congruence).
    eexists; split; eauto. congruence.
  - rewrite nth_error_upd_other by auto. eexists; split; eauto. apply obj_le_refl.
Qed.

Lemma alloc_le : forall w f x w1 g, alloc w f x = (w1, g) -> world_le w w1.
Proof.
  unfold alloc; intros w f x w1 g H. destruct (get_store w f) eqn:E; inversion H; subst.
  - eapply world_le_set; eauto. apply store_le_app.
  - apply world_le_refl.
Qed.

Lemma alloc_fresh : forall w f x w1 g, alloc w f x = (w1, g) -> obj_at w f g = None.
Proof.
  unfold alloc, obj_at; intros w f x w1 g H. destruct (get_store w f); auto.
  injection H as _ <-. now apply nth_error_None.
Qed.

Lemma alloc_at : forall w f x w1 g, alloc w f x = (w1, g) -> file_exists w1 f = true -> obj_at w1 f g = Some x.
Proof.
  unfold alloc, obj_at, file_exists; intros w f x w1 g H Hex. destruct (get_store w f) eqn:E; injection H as <- <-.
  - rewrite get_set_same, nth_error_app2, Nat.sub_diag; auto.
  - now rewrite E in Hex.
Qed.

Lemma alloc_old : forall w f x w1 g f' o y, alloc w f x = (w1, g) -> obj_at w f' o = Some y -> obj_at w1 f' o = Some y.
Proof.
  unfold alloc, obj_at; intros w f x w1 g f' o y H Hy. destruct (get_store w f) eqn:E; injection H as <- _; auto.
  destruct (fid_dec f f') as [<-|N]; [|now rewrite get_set_other].
  rewrite get_set_same. rewrite E in Hy. rewrite nth_error_app1; auto. apply nth_error_Some. congruence.
Qed.

Lemma set_obj_le : forall w f o x y, obj_at w f o = Some x -> obj_le x y -> world_le w (set_obj w f o y).
Proof.
  unfold obj_at, set_obj; intros w f o x y Hx Hle. destruct (get_store w f) eqn:E; try discriminate.
  eapply world_le_set; eauto. eapply store_le_upd; eauto.
Qed.

Lemma set_obj_at : forall w f o x y, obj_at w f o = Some x -> obj_at (set_obj w f o y) f o = Some y.
Proof.
  unfold obj_at, set_obj; intros w f o x y Hx. destruct (get_store w f) eqn:E; try discriminate.
  rewrite get_set_same. apply nth_error_upd_same. apply nth_error_Some. congruence.
Qed.

Lemma set_obj_other : forall w f o y f' o', f' <> f \/ o' <> o -> obj_at (set_obj w f o y) f' o' = obj_at w f' o'.
Proof.
  intros w f o y f' o' N. unfold obj_at, set_obj. destruct (get_store w f) eqn:E; auto.
  destruct (fid_dec f f') as [<-|Nf]; [|now rewrite get_set_other].
  rewrite get_set_same, E. apply nth_error_upd_other. destruct N; congruence.
Qed.

Lemma set_obj_exists : forall w f o y f', file_exists (set_obj w f o y) f' = file_exists w f'.
Proof.
  intros. unfold file_exists, set_obj. destruct (get_store w f) eqn:E; auto.
  destruct (fid_dec f f') as [<-|N]; [now rewrite get_set_same, E|now rewrite get_set_other].
Qed.

Lemma obj_exists : forall w f o x, obj_at w f o = Some x -> file_exists w f = true.
Proof. unfold obj_at, file_exists; intros. now destruct (get_store w f). Qed.

Lemma lookup_obj : forall w f o n l, lookup_link w f o n = Some l -> exists x, obj_at w f o = Some x.
Proof. unfold lookup_link; intros. destruct (obj_at w f o); eauto. discriminate. Qed.

Lemma links_le_ins : forall n l ls, assoc n ls = None -> links_le ls (ins_sorted n l ls).
Proof.
  intros n l ls Hn m l' Hm. destruct (S.eqb n m) eqn:E.
  - apply S.eqb_eq in E; subst. congruence.
  - rewrite assoc_ins_other; auto. intro; subst. rewrite S.eqb_refl in E. discriminate.
Qed.

Lemma bind_inv : forall w f g n l w', bind w f g n l = Some w' ->
  exists a ls, obj_at w f g = Some (Group a ls) /\ assoc n ls = None /\ w' = set_obj w f g (Group a (ins_sorted n l ls)).
Proof.
  unfold bind; intros w f g n l w' H. destruct (obj_at w f g) as [[a ls|d]|]; try discriminate.
  destruct (assoc n ls) eqn:En; try discriminate. injection H as <-. eauto.
Qed.

Lemma bind_le : forall w f g n l w', bind w f g n l = Some w' -> world_le w w'.
Proof.
  intros w f g n l w' H. destruct (bind_inv _ _ _ _ _ _ H) as (a & ls & E & En & ->).
  eapply set_obj_le; eauto. simpl. split; auto. now apply links_le_ins.
Qed.

Lemma bind_lookup : forall w f g n l w', bind w f g n l = Some w' -> lookup_link w' f g n = Some l.
Proof.
  intros w f g n l w' H. destruct (bind_inv _ _ _ _ _ _ H) as (a & ls & E & En & ->).
  unfold lookup_link. erewrite set_obj_at by eauto. apply assoc_ins_same.
Qed.

Lemma bind_lookup_other : forall w f g n l w' f' o m, bind w f g n l = Some w' -> f' <> f \/ o <> g \/ n <> m ->
  lookup_link w' f' o m = lookup_link w f' o m.
Proof.
  intros w f g n l w' f' o m H N. destruct (bind_inv _ _ _ _ _ _ H) as (a & ls & E & En & ->). unfold lookup_link.
  destruct (fid_dec f' f) as [->|Nf]; [destruct (Nat.eq_dec o g) as [->|No]|]; try (rewrite set_obj_other by auto; reflexivity).
  erewrite set_obj_at, E by eauto. apply assoc_ins_other. intuition congruence.
Qed.

Lemma ensure_gen_le : forall fol comps w xs xe f o w1 fl f1 g,
  ensure_gen fol w xs xe f o comps = Some (w1, fl, f1, g) -> world_le w w1.
Proof.
  induction comps as [|c rest IH]; simpl; intros w xs xe f o w1 fl f1 g H.
  - inversion H; subst. apply world_le_refl.
  - destruct (obj_at w f o) as [[a ls|d]|] eqn:E; try discriminate.
    destruct (assoc c ls) as [l|] eqn:Ec.
    + destruct (fol w f l); try discriminate. eauto.
    + destruct (alloc w f (Group [] [])) as [wa ga] eqn:Ea.
      eapply world_le_trans; [eapply alloc_le; eauto|].
      eapply world_le_trans; [|eapply IH; eauto].
      eapply set_obj_le; [eapply alloc_old; eauto|]. simpl; split; auto. now apply links_le_ins.
Qed.

Lemma ensure_le : forall comps w f o w1 fl f1 g,
  ensure w f o comps = Some (w1, fl, f1, g) -> world_le w w1.
Proof. unfold ensure; intros. eapply ensure_gen_le; eauto. Qed.

Lemma set_attrs_at : forall w f o b a ls, obj_at w f o = Some (Group a ls) ->
  obj_at (set_attrs w f o b) f o = Some (Group (upd_attrs a b) ls).
Proof. intros. unfold set_attrs. rewrite H. eapply set_obj_at; eauto. Qed.

Lemma set_attrs_other : forall w f o b f' o', f' <> f \/ o' <> o -> obj_at (set_attrs w f o b) f' o' = obj_at w f' o'.
Proof. intros. unfold set_attrs. destruct (obj_at w f o) as [[a ls|d]|]; auto using set_obj_other. Qed.

Lemma set_attrs_exists : forall w f o b f', file_exists (set_attrs w f o b) f' = file_exists w f'.
Proof. intros. unfold set_attrs. destruct (obj_at w f o) as [[a ls|d]|]; auto using set_obj_exists. Qed.

Lemma set_attrs_lookup : forall w f o b f' o' m, lookup_link (set_attrs w f o b) f' o' m = lookup_link w f' o' m.
Proof.
  intros. unfold lookup_link.
  destruct (fid_dec f' f) as [->|Nf]; [destruct (Nat.eq_dec o' o) as [->|No]|]; try (now rewrite set_attrs_other by auto).
  destruct (obj_at w f o) as [[a ls|d]|] eqn:E; [now erewrite set_attrs_at by eauto|unfold set_attrs; rewrite E; cbv iota; now rewrite E..].
Qed.

Lemma set_attrs_kept : forall av w f o b, kept av w (set_attrs w f o b).
Proof. split; intros; [now rewrite set_attrs_exists|now rewrite set_attrs_lookup]. Qed.

Lemma resolves_nil : forall w f o, resolves_from w f o [] f o.
Proof. intros. exists 1%nat. reflexivity. Qed.

Lemma resolves_app : forall w f o p f1 o1 r f2 o2,
  resolves_from w f o p f1 o1 -> resolves_from w f1 o1 r f2 o2 -> resolves_from w f o (p ++ r) f2 o2.
Proof. intros w f o p f1 o1 r f2 o2 [k1 H1] [k2 H2]. exists (k1 + k2)%nat. eapply walk_app; eauto. Qed.

Lemma split_last_app : forall p par n, split_last p = Some (par, n) -> p = par ++ [n].
Proof.
  induction p as [|c r IH]; simpl; intros par n H; try discriminate.
  destruct (split_last r) as [[q m]|] eqn:E.
  - inversion H; subst. simpl. f_equal. auto.
  - inversion H; subst. destruct r; simpl in E; auto.
    destruct (split_last r) as [[? ?]|]; discriminate.
Qed.

Lemma ensure_gen_resolves : forall comps w xs xe f o w1 fl f1 g,
  ensure_gen follow w xs xe f o comps = Some (w1, fl, f1, g) -> resolves_from w1 f o comps f1 g.
Proof.
  induction comps as [|c rest IH]; simpl; intros w xs xe f o w1 fl f1 g H.
  - inversion H; subst. apply resolves_nil.
  - destruct (obj_at w f o) as [[a ls|d]|] eqn:E; try discriminate.
    destruct (assoc c ls) as [l|] eqn:Ec.
    + destruct (follow w f l) as [f' o'| |] eqn:Ef; try discriminate.
      pose proof (ensure_gen_le _ _ _ _ _ _ _ _ _ _ _ H) as L.
      eapply resolves_step.
      * eapply world_le_lookup; eauto. unfold lookup_link. rewrite E. exact Ec.
      * eapply follow_found_mono; eauto.
      * eapply IH; eauto.
    + destruct (alloc w f (Group [] [])) as [wa ga] eqn:Ea.
      pose proof (ensure_gen_le _ _ _ _ _ _ _ _ _ _ _ H) as L.
      destruct (world_le_obj _ _ _ _ _ (alloc_le _ _ _ _ _ Ea) E) as (y & Ey & _).
      eapply resolves_step with (l := Hard ga).
      * eapply world_le_lookup; eauto. unfold lookup_link.
        erewrite set_obj_at by eauto. apply assoc_ins_same.
      * reflexivity.
      * eapply IH; eauto.
Qed.

Lemma exists_err_not_ok : forall w f g n e, e <> Ok -> exists_err w f g n e <> Ok.
Proof.
  unfold exists_err; intros. destruct (lookup_link w f g n); auto. destruct (follow w f l); auto; discriminate.
Qed.

(** the three ways [add_link] ends: the link is bound in the parent that [ensure] reached; nothing is written;
    or (hard link into another file) only the intermediate groups stay *)
Lemma add_link_inv : forall w f p l lf e1 e2 e w', e1 <> Ok -> e2 <> Ok ->
  add_link w f p l lf e1 e2 = (e, w') ->
  (e = Ok /\ exists par n w1 fl f1 g, split_last p = Some (par, n) /\ ensure w f 0 par = Some (w1, fl, f1, g) /\
     bind w1 f1 g n l = Some w' /\ (forall o, l = Hard o -> f1 = lf)) \/
  (e <> Ok /\ (w' = w \/ (exists o, l = Hard o) /\ world_le w w')).
Proof.
  unfold add_link; intros w f p l lf e1 e2 e w' N1 N2 H.
  destruct (split_last p) as [[par n]|]; [|injection H as <- <-; auto].
  destruct (ensure w f 0 par) as [[[[w1 [xs xe]] f1] g]|] eqn:E; [|injection H as <- <-; auto].
  (* every branch that gets as far as [bind] ends the same way *)
  set (C := _ \/ _).
  assert ((forall o, l = Hard o -> f1 = lf) ->
          match bind w1 f1 g n l with Some w2 => (Ok, w2) | None => (exists_err w1 f1 g n e1, w) end = (e, w') -> C) as K.
  { intros Hh Hb. destruct (bind w1 f1 g n l) eqn:B; injection Hb as <- <-; [left; eauto 12|right].
    split; auto using exists_err_not_ok. }
  destruct l as [o|q|f' q].
  - destruct (fid_eqb f1 lf) eqn:Ef; [apply K; auto; intros; now apply fid_eqb_eq|].
    injection H as <- <-. right. split; [discriminate|]. right. split; eauto using ensure_le.
  - apply K; auto; discriminate.
  - destruct xe; [injection H as <- <-; right; split; [discriminate|auto]|apply K; auto; discriminate].
Qed.

Lemma add_link_le : forall w f p l lf e1 e2, e1 <> Ok -> e2 <> Ok -> world_le w (snd (add_link w f p l lf e1 e2)).
Proof.
  intros w f p l lf e1 e2 N1 N2. destruct (add_link w f p l lf e1 e2) as [e w'] eqn:H.
  destruct (add_link_inv _ _ _ _ _ _ _ _ _ N1 N2 H) as [(_ & par & n & w1 & fl & f1 & g & _ & E & B & _)|(_ & [->|[_ L]])]; simpl.
  - eapply world_le_trans; [eapply ensure_le|eapply bind_le]; eauto.
  - apply world_le_refl.
  - exact L.
Qed.

Lemma add_link_err_unchanged : forall w f p l lf e1 e2 e w', e1 <> Ok -> e2 <> Ok -> (forall o, l <> Hard o) ->
  add_link w f p l lf e1 e2 = (e, w') -> e <> Ok -> w' = w.
Proof.
  intros w f p l lf e1 e2 e w' N1 N2 Hl H Ne.
  destruct (add_link_inv _ _ _ _ _ _ _ _ _ N1 N2 H) as [[E _]|(_ & [E|[[o E] _]])]; [congruence|exact E|now destruct (Hl o)].
Qed.

Lemma link_created_resolves : forall w f p l lf e1 e2 w', e1 <> Ok -> e2 <> Ok ->
  add_link w f p l lf e1 e2 = (Ok, w') ->
  exists par n f1 g, p = par ++ [n] /\ resolves_from w' f 0 par f1 g /\ lookup_link w' f1 g n = Some l /\
                     (forall o, l = Hard o -> f1 = lf).
Proof.
  intros w f p l lf e1 e2 w' N1 N2 H.
  destruct (add_link_inv _ _ _ _ _ _ _ _ _ N1 N2 H) as [(_ & par & n & w1 & fl & f1 & g & Hs & He & Hb & Hh)|[[] _]]; auto.
  exists par, n, f1, g. split; [now apply split_last_app|]. split.
  - eapply resolves_mono; [eapply bind_le; eauto|]. unfold ensure in He. eapply ensure_gen_resolves; eauto.
  - split; auto. eapply bind_lookup; eauto.
Qed.

Definition shift_entry (k : nat) (pe : path * dentry) : path * dentry :=
  (fst pe, match snd pe with
           | DG o a => DG (o + k) a
           | DD o x => DD (o + k) x
           | e => e
           end).

Lemma flat_map_map_ext : forall X Y Z (F : X -> list Y) (F' : X -> list Z) (G : X -> X) (Sf : Y -> Z) ls,
  (forall x, In x ls -> F' (G x) = map Sf (F x)) -> flat_map F' (map G ls) = map Sf (flat_map F ls).
Proof.
  induction ls as [|x r IH]; simpl; intros H; auto.
  rewrite map_app, H by auto. f_equal. apply IH. intros; apply H; auto.
Qed.

(** object o of the source store sits, shifted, at o + k of the destination store *)
Definition copied_block (w w' : world) (sf df : fid) (k : nat) : Prop :=
  exists st_s st', get_store w sf = Some st_s /\ get_store w' df = Some st' /\
    forall o, nth_error st' (o + k) = option_map (shift_obj k) (nth_error st_s o).

Lemma dump_shift : forall d w w' sf df k, copied_block w w' sf df k ->
  forall o pre, dump d w' df (o + k) pre = map (shift_entry k) (dump d w sf o pre).
Proof.
  induction d; intros w w' sf df k Hb o pre; simpl; auto.
  destruct Hb as (st_s & st' & Es & Es' & Hn).
  assert (forall o, obj_at w' df (o + k) = option_map (shift_obj k) (obj_at w sf o)) as Ho.
  { intro o0. unfold obj_at. rewrite Es, Es'. apply Hn. }
  rewrite Ho. destruct (obj_at w sf o) as [[a ls|x]|]; simpl; auto.
  apply flat_map_map_ext. intros [n l] _. simpl. destruct l as [o'| |]; simpl; auto.
  rewrite Ho. destruct (obj_at w sf o') as [[a' ls'|x']|]; simpl; auto.
  unfold shift_entry at 1. simpl. f_equal.
  apply IHd. exists st_s, st'. auto.
Qed.

(** a refused H5Ocopy writes nothing; a successful one binds the last name of the destination path, in the parent
    that [ensure] reached, to the shifted copy of the source object *)
Lemma h5copy_inv : forall w sf so df dg dp e w', h5copy w sf so df dg dp = (e, w') ->
  (e <> Ok /\ w' = w) \/
  (e = Ok /\ exists k par n g,
     world_le w w' /\ copied_block w w' sf df k /\ dp = par ++ [n] /\
     resolves_from w' df dg par df g /\ lookup_link w' df g n = Some (Hard (so + k))).
Proof.
  unfold h5copy; intros w sf so df dg dp e w' H.
  assert ((ERuntime, w) = (e, w') -> e <> Ok /\ w' = w) as Err by (intro X; injection X as <- <-; split; [discriminate|reflexivity]).
  destruct (split_last dp) as [[par n]|] eqn:Hs; auto.
  destruct (get_store w sf) as [src0|] eqn:Esrc; auto.
  destruct (ensure w df dg par) as [[[[w1 [xs xe]] f1] g]|] eqn:E; auto.
  destruct (xs || negb (fid_eqb f1 df)) eqn:Ex; auto.
  apply orb_false_iff in Ex. destruct Ex as [_ Ef]. apply negb_false_iff in Ef. apply fid_eqb_eq in Ef. subst f1.
  destruct (get_store w1 df) as [st1|] eqn:Es1; auto.
  destruct (nth_error st1 g) as [[a ls|]|] eqn:Eg; auto.
  destruct (assoc n ls) eqn:En; auto.
  injection H as <- <-. right. split; auto.
  set (k := List.length st1).
  assert (g < k)%nat as Lg by (apply nth_error_Some; congruence).
  assert (world_le w1 (set_store w1 df (Some (upd g (Group a (ins_sorted n (Hard (so + k)) ls)) st1 ++ map (shift_obj k) src0)))) as L1.
  { eapply world_le_set; eauto. eapply store_le_trans; [|apply store_le_app].
    eapply store_le_upd; eauto. simpl; split; auto. now apply links_le_ins. }
  exists k, par, n, g. split; [|split; [|split; [|split]]].
  - eapply world_le_trans; [eapply ensure_le|]; eauto.
  - exists src0, (upd g (Group a (ins_sorted n (Hard (so + k)) ls)) st1 ++ map (shift_obj k) src0).
    split; auto. split; [apply get_set_same|].
    intro o. rewrite nth_error_app2 by (rewrite length_upd; fold k; lia).
    rewrite length_upd. fold k. replace (o + k - k)%nat with o by lia. apply nth_error_map.
  - now apply split_last_app.
  - eapply resolves_mono; [exact L1|]. unfold ensure in E. eapply ensure_gen_resolves; eauto.
  - unfold lookup_link, obj_at. rewrite get_set_same.
    rewrite nth_error_app1 by (rewrite length_upd; fold k; lia).
    rewrite nth_error_upd_same by (fold k; lia). apply assoc_ins_same.
Qed.

Lemma h5copy_le : forall w sf so df dg dp, world_le w (snd (h5copy w sf so df dg dp)).
Proof.
  intros. destruct (h5copy w sf so df dg dp) as [e w'] eqn:H. simpl.
  destruct (h5copy_inv _ _ _ _ _ _ _ _ H) as [[_ ->]|(_ & k & par & n & g & L & _)]; [apply world_le_refl|exact L].
Qed.

Lemma copy_children_gen_le : forall fol cpy, (forall w a b c d e, world_le w (snd (cpy w a b c d e))) ->
  forall names w sf so df, world_le w (snd (copy_children_gen fol cpy w sf so names df)).
Proof.
  intros fol cpy Hc. induction names as [|[n l] rest IH]; simpl; intros; [apply world_le_refl|].
  destruct (fol w sf l); simpl; try apply world_le_refl.
  specialize (Hc w f o df 0%nat [n]). destruct (cpy w f o df 0%nat [n]) as [e w1]; simpl in *.
  destruct e; simpl; auto. eapply world_le_trans; eauto.
Qed.

(** opening the destination for writing ([|| false]: the overwrite flag is off) creates it empty if it is missing *)
Lemma open_dst_le : forall w df,
  world_le w (if negb (file_exists w df) || false then set_store w df (Some empty_store) else w).
Proof.
  intros. unfold file_exists. destruct (get_store w df) eqn:E; simpl.
  - apply world_le_refl.
  - now apply world_le_create.
Qed.

(** One pass over _copy without the overwrite flag and without rename, whatever the outcome: links and objects
    are only added, except that a cross-file copy onto the destination root that gets through also updates the
    root attributes. *)
Lemma copy_le : forall w sf sp df dp link soft,
  let w' := snd (_copy w sf sp df dp false link false soft) in
  world_le w w' \/
  (sf <> df /\ dp = [] /\ link = false /\ soft = false /\ exists w2 a, world_le w w2 /\ w' = set_attrs w2 df 0%nat a).
Proof.
  intros. unfold w', _copy.
  destruct (Nat.ltb 1 _); [left; apply world_le_refl|].
  destruct (negb (file_exists w sf)); [left; apply world_le_refl|].
  destruct (fid_eqb sf df && (negb (file_exists w df) || false)); [left; apply world_le_refl|].
  pose proof (open_dst_le w df) as L0.
  set (w1 := if negb (file_exists w df) || false then set_store w df (Some empty_store) else w) in *.
  assert (forall x, world_le w1 x -> world_le w x) as K by (intros; eapply world_le_trans; eauto).
  destruct (fid_eqb sf df) eqn:Esame.
  - left. apply K. destruct (link || false).
    + destruct (resolve w1 sf sp); try apply world_le_refl.
      assert (world_le w1 (snd (add_link w1 sf dp (Hard o) f EOS EOS))) as La by (apply add_link_le; discriminate).
      destruct (add_link w1 sf dp (Hard o) f EOS EOS) as [[] wa]; exact La.
    + destruct soft; [apply add_link_le; discriminate|].
      destruct (resolve w1 sf sp); try apply world_le_refl. apply h5copy_le.
  - destruct link; [left; auto|]. destruct soft; [left; apply K, add_link_le; discriminate|].
    destruct dp as [|d0 dr].
    + destruct (resolve w1 sf sp); try (left; auto; fail).
      destruct (obj_at w1 f o) as [[a ls|d]|]; try (left; auto; fail).
      pose proof (copy_children_gen_le follow h5copy h5copy_le ls w1 f o df) as Lc. fold copy_children in Lc.
      destruct (copy_children w1 f o ls df) as [[] wc]; try (left; apply K, Lc).
      right. repeat split; auto; [|exists wc, a; split; [apply K, Lc|reflexivity]].
      intros ->. rewrite (proj2 (fid_eqb_eq df df) eq_refl) in Esame. discriminate.
    + left. apply K. destruct (resolve w1 sf sp); try apply world_le_refl. apply h5copy_le.
Qed.

(** cp / ln / ln -s without the overwrite flag only ADD links (and objects): whatever the outcome,
    every object of both files is still there with the same attributes and payload and every link it
    had; hence (resolves_mono) every path that resolved keeps resolving to the same object.
    The one exception is the cross-file copy onto the root of the destination, which also updates the
    root attributes (the second case of copy_le). *)
Theorem copy_frame : forall w sf sp df dp link soft e w',
  _copy w sf sp df dp false link false soft = (e, w') ->
  (sf = df \/ dp <> [] \/ link = true \/ soft = true) ->
  world_le w w'.
Proof.
  intros w sf sp df dp link soft e w' H Hdom. pose proof (copy_le w sf sp df dp link soft) as L.
  rewrite H in L. destruct L as [L|(N1 & N2 & N3 & N4 & _)]; [exact L|]. subst. intuition congruence.
Qed.

Lemma copy_hard_ok : forall w f sp dp rename w',
  _copy w f sp f dp false (negb rename) rename false = (Ok, w') ->
  exists fo o w2, resolve w f sp = Found fo o /\ add_link w f dp (Hard o) fo EOS EOS = (Ok, w2) /\
    (if rename then del_link w2 f sp else (Ok, w2)) = (Ok, w').
Proof.
  intros w f sp dp rename w' H. unfold _copy in H.
  (* exactly one flag is set, the file is open and is not truncated: what remains is resolve, then add_link *)
  destruct rename; change (Nat.ltb 1 _) with false in H; cbv iota in H;
    (destruct (file_exists w f) eqn:Ex; simpl negb in H; cbv iota in H; [|discriminate]);
    rewrite (proj2 (fid_eqb_eq f f) eq_refl) in H; simpl in H;
    (destruct (resolve w f sp) as [fo o| |]; try discriminate);
    (destruct (add_link w f dp (Hard o) fo EOS EOS) as [[] w2] eqn:Ea; try discriminate); eauto 6.
Qed.

(** fileops.ln (hard link, same file): the destination is THE SAME OBJECT as the source *)
Theorem ln_spec : forall w f sp dp w',
  _copy w f sp f dp false true false false = (Ok, w') ->
  exists fo o, resolve w f sp = Found fo o /\ resolves w' f dp fo o /\ world_le w w'.
Proof.
  intros w f sp dp w' H.
  assert (world_le w w') as L by (eapply copy_frame; eauto).
  destruct (copy_hard_ok w f sp dp false w' H) as (fo & o & w2 & Er & Ea & E). injection E as ->.
  assert (EOS <> Ok) as NE by discriminate.
  destruct (link_created_resolves w f dp (Hard o) fo EOS EOS w' NE NE Ea)
    as (par & n & f1 & g & -> & Hpar & Hl & Hh).
  exists fo, o. split; auto. split; auto.
  rewrite (Hh o eq_refl) in *.
  eapply resolves_app; eauto. eapply resolves_step; eauto; [reflexivity|apply resolves_nil].
Qed.

(** cp into an existing file, not onto its root from another file, is H5Ocopy of the resolved source *)
Lemma copy_plain_eq : forall w sf sp df dp, file_exists w df = true -> sf = df \/ dp <> [] ->
  _copy w sf sp df dp false false false false =
  if negb (file_exists w sf) then (EOS, w) else
  match resolve w sf sp with Found fs o => h5copy w fs o df 0 dp | _ => (ERuntime, w) end.
Proof.
  intros w sf sp df dp Hex Hdom. unfold _copy. change (Nat.ltb 1 (0 + 0 + 0)) with false. cbv iota.
  destruct (negb (file_exists w sf)); [reflexivity|].
  rewrite Hex. simpl negb. simpl orb. rewrite andb_false_r. cbv iota.
  destruct (fid_eqb sf df) eqn:E; [apply fid_eqb_eq in E; now subst df|]. simpl.
  destruct dp; [|reflexivity]. destruct Hdom as [->|N]; [|congruence].
  rewrite (proj2 (fid_eqb_eq df df) eq_refl) in E. discriminate.
Qed.

(** fileops.cp onto a non-root destination of an existing file: the destination resolves to a NEW object
    (id shifted by k) that dumps - structure, attributes, payloads, link values, sharing pattern - exactly as
    the source object did, and nothing else changed (copy_frame) *)
Theorem cp_spec : forall w sf sp df dp w',
  file_exists w df = true -> (sf = df \/ dp <> []) ->
  _copy w sf sp df dp false false false false = (Ok, w') ->
  exists fs o k,
    resolve w sf sp = Found fs o /\ resolves w' df dp df (o + k) /\
    (forall d pre, dump d w' df (o + k) pre = map (shift_entry k) (dump d w fs o pre)) /\
    world_le w w'.
Proof.
  intros w sf sp df dp w' Hex Hdom H. rewrite copy_plain_eq in H by auto.
  destruct (negb (file_exists w sf)); try discriminate.
  destruct (resolve w sf sp) as [fs o| |]; try discriminate.
  destruct (h5copy_inv _ _ _ _ _ _ _ _ H) as [[[] _]|(_ & k & par & n & g & L & Hb & -> & Hpar & Hl)]; auto.
  exists fs, o, k. split; auto. split; [|split; auto].
  - eapply resolves_app; eauto. eapply resolves_step; eauto; [reflexivity|apply resolves_nil].
  - intros. now apply dump_shift.
Qed.

(** a refused cp or ln -s (no overwrite flag, existing destination file, not the root-destination case)
    leaves both files exactly as they were *)
Theorem copy_error_unchanged : forall w sf sp df dp soft e w',
  file_exists w df = true -> (sf = df \/ dp <> [] \/ soft = true) ->
  _copy w sf sp df dp false false false soft = (e, w') -> e <> Ok -> w' = w.
Proof.
  intros w sf sp df dp soft e w' Hex Hdom H Ne. destruct soft.
  - unfold _copy in H. change (Nat.ltb 1 (0 + 0 + 1)) with false in H. cbv iota in H.
    destruct (negb (file_exists w sf)); [now injection H as _ <-|].
    rewrite Hex in H. simpl negb in H. simpl orb in H. rewrite andb_false_r in H. cbv iota in H.
    destruct (fid_eqb sf df); simpl in H; eapply add_link_err_unchanged; try exact H; auto; intros; discriminate.
  - rewrite copy_plain_eq in H by (auto; destruct Hdom as [|[|]]; auto; discriminate).
    destruct (negb (file_exists w sf)); [now injection H as _ <-|].
    destruct (resolve w sf sp); try (now injection H as _ <-).
    destruct (h5copy_inv _ _ _ _ _ _ _ _ H) as [[_ E]|[E _]]; [exact E|congruence].
Qed.

(** is_cooler never raises (after the D5 and D25 repairs) *)
Theorem is_cooler_never_raises : forall w f p e, is_cooler w f p <> TRaise e.
Proof.
  intros w f p e. unfold is_cooler.
  destruct (negb (file_exists w f)); [discriminate|].
  destruct (contains w f p); try discriminate.
  destruct (resolve w f p); try discriminate.
  destruct (obj_at w f0 o); try discriminate.
  destruct (is_cooler_obj o0); discriminate.
Qed.

Theorem is_cooler_true_iff : forall w f p,
  is_cooler w f p = TTrue <->
  file_exists w f = true /\ contains w f p = TTrue /\
  exists f1 o x, resolve w f p = Found f1 o /\ obj_at w f1 o = Some x /\ is_cooler_obj x = true.
Proof.
  intros w f p. unfold is_cooler. split.
  - destruct (file_exists w f); simpl; [|discriminate].
    destruct (contains w f p); try discriminate.
    destruct (resolve w f p) as [f1 o| |]; try discriminate.
    destruct (obj_at w f1 o) as [x|] eqn:E; try discriminate.
    destruct (is_cooler_obj x) eqn:Ec; try discriminate.
    intros _. repeat split; auto. exists f1, o, x. auto.
  - intros (Hex & Hc & f1 & o & x & Hr & Ho & Hx). now rewrite Hex, Hc, Hr, Ho, Hx.
Qed.

(** false - not an error - for a path that is not a member path (D5) or does not resolve (D25) *)
Theorem is_cooler_false_elsewhere : forall w f p,
  (contains w f p <> TTrue \/ (forall f1 o, resolve w f p <> Found f1 o)) -> is_cooler w f p = TFalse.
Proof.
  intros w f p H. unfold is_cooler.
  destruct (negb (file_exists w f)); auto.
  destruct (contains w f p) eqn:Ec; auto.
  destruct (resolve w f p) as [f1 o| |] eqn:Er; auto.
  destruct H as [H|H]; [congruence|]. exfalso. eapply H; eauto.
Qed.

Lemma set_store_twice : forall w f a b, set_store (set_store w f a) f b = set_store w f b.
Proof. destruct f; reflexivity. Qed.

(** mode "w" replaces the file: the result does not depend on what the file held (or whether it existed) *)
Theorem create_w_replaces : forall w f p spec,
  create w f p true spec = create (set_store w f None) f p true spec.
Proof. intros. unfold create. simpl orb. cbv iota. now rewrite set_store_twice. Qed.

(** one traversal step of TreeNode.get_children: a member (k, l) of group (f, o) that opens to (f1, o1),
    named the way h5py names it *)
Definition vstep (w : world) (f : fid) (o : nat) (name nm : path) (f1 : fid) (o1 : nat) : Prop :=
  exists a ls k l, obj_at w f o = Some (Group a ls) /\ In (k, l) ls /\
                   nm = child_name name k l /\ follow w f l = Found f1 o1.
Inductive reach (w : world) : fid -> nat -> path -> path -> fid -> nat -> Prop :=
  | reach_one : forall f o name nm f1 o1, vstep w f o name nm f1 o1 -> reach w f o name nm f1 o1
  | reach_more : forall f o name nm f1 o1 p f2 o2,
      vstep w f o name nm f1 o1 -> reach w f1 o1 nm p f2 o2 -> reach w f o name p f2 o2.

(** the loop of [visit] over the opened children, the recursive call abstracted as [vis] (visit_unfold) *)
Fixpoint go (vis : fid -> nat -> path -> visit_result) (cs : list (path * res)) : visit_result :=
  match cs with
  | [] => (Ok, [])
  | (nm, Found f1 o1) :: r =>
      match vis f1 o1 nm with
      | (Ok, sub) => match go vis r with
                     | (Ok, t) => (Ok, (nm, f1, o1) :: sub ++ t)
                     | e => e
                     end
      | e => e
      end
  | (_, _) :: _ => (EAttr, [])
  end.

Lemma visit_unfold : forall k w f o name,
  visit (S k) w f o name =
  match obj_at w f o with
  | Some (Group _ ls) =>
      match open_children w f name ls with
      | None => (ERuntime, [])
      | Some cs => go (visit k w) cs
      end
  | _ => (Ok, [])
  end.
Proof.
  intros. unfold visit at 1. simpl. destruct (obj_at w f o) as [[a ls|]|]; auto.
  destruct (open_children w f name ls) as [cs|]; auto.
  induction cs as [|[nm r] cs IH]; simpl; auto.
  destruct r; auto. fold (visit k w f0 o0 nm). destruct (visit k w f0 o0 nm) as [[] sub]; auto.
  rewrite IH. reflexivity.
Qed.

Lemma open_children_inv : forall ls w f name cs, open_children w f name ls = Some cs ->
  cs = map (fun kl => (child_name name (fst kl) (snd kl), follow w f (snd kl))) ls.
Proof.
  unfold open_children. induction ls as [|[k l] r IH]; simpl; intros w f name cs H.
  - now injection H as <-.
  - destruct (follow w f l) eqn:Ef; try discriminate;
      destruct (open_children_gen follow w f name r) as [t|] eqn:Et; try discriminate;
      injection H as <-; simpl; f_equal; eauto.
Qed.

Lemma go_inv : forall vis cs L, go vis cs = (Ok, L) ->
  (forall nm r, In (nm, r) cs -> exists f1 o1 sub, r = Found f1 o1 /\ vis f1 o1 nm = (Ok, sub)) /\
  L = flat_map (fun c => match snd c with
                         | Found f1 o1 => (fst c, f1, o1) :: snd (vis f1 o1 (fst c))
                         | _ => []
                         end) cs.
Proof.
  induction cs as [|[nm r] cs IH]; simpl; intros L H.
  - injection H as <-. split; [intros ? ? []|auto].
  - destruct r as [f1 o1| |]; try discriminate.
    destruct (vis f1 o1 nm) as [[] sub] eqn:Ev; try discriminate.
    destruct (go vis cs) as [[] t] eqn:Eg; try discriminate.
    injection H as <-. destruct (IH _ eq_refl) as (A & <-). split; [|reflexivity].
    intros nm' r' [E|Hin]; [injection E as <- <-; eauto|eauto].
Qed.

Lemma reach_inv : forall w f o name p f2 o2, reach w f o name p f2 o2 <->
  exists nm f1 o1, vstep w f o name nm f1 o1 /\ ((nm, f1, o1) = (p, f2, o2) \/ reach w f1 o1 nm p f2 o2).
Proof.
  split.
  - intros R. inversion R; subst; eauto 7.
  - intros (nm & f1 & o1 & S & [E|R]); [injection E as -> -> ->; now apply reach_one|eapply reach_more; eauto].
Qed.

(** partial correctness of the traversal: IF it returns without an error, the visited nodes are exactly
    the objects reachable through members, each under the name h5py reports *)
Theorem visit_exact : forall k w f o name nodes, visit k w f o name = (Ok, nodes) ->
  forall p f2 o2, In (p, f2, o2) nodes <-> reach w f o name p f2 o2.
Proof.
  induction k; intros w f o name nodes H p f2 o2; [discriminate|].
  rewrite visit_unfold in H. rewrite reach_inv.
  destruct (obj_at w f o) as [[a ls|d]|] eqn:Eo.
  2,3: injection H as <-; split; [intros []|intros (nm & f1 & o1 & (a & ls & k0 & l & E & _) & _); congruence].
  destruct (open_children w f name ls) as [cs|] eqn:Eoc; try discriminate.
  pose proof (open_children_inv _ _ _ _ _ Eoc) as Hcs.
  destruct (go_inv _ _ _ H) as (A & ->).
  assert (forall nm f1 o1, In (nm, Found f1 o1) cs <-> vstep w f o name nm f1 o1) as Hstep.
  { intros nm f1 o1. rewrite Hcs. rewrite in_map_iff. split.
    - intros ([k0 l] & E & Hin). simpl in E. injection E as <- Ef.
      exists a, ls, k0, l. auto.
    - intros (a' & ls' & k0 & l & Eo' & Hin & -> & Ef). rewrite Eo in Eo'. injection Eo' as <- <-.
      exists (k0, l). simpl. rewrite Ef. auto. }
  rewrite in_flat_map. split.
  - intros ([nm r] & I & Hx). destruct (A _ _ I) as (f1 & o1 & sub & -> & V). simpl in Hx. rewrite V in Hx.
    exists nm, f1, o1. split; [now apply Hstep|]. destruct Hx as [E|D]; [left; auto|right; eapply IHk; eauto].
  - intros (nm & f1 & o1 & S & D). apply Hstep in S. destruct (A _ _ S) as (f1' & o1' & sub & E & V). injection E as <- <-.
    exists (nm, Found f1 o1). split; auto. simpl. rewrite V.
    destruct D as [E|R]; [left; auto|right; eapply IHk; eauto].
Qed.

(** list_coolers: whenever it returns a listing at all, the listing is exact with respect to reachability *)
Theorem listing_exact_reach : forall w f L, list_coolers w f = (Ok, L) ->
  forall p, In p L <->
    (p = [] /\ is_cooler_at w f 0 = true) \/
    (exists f2 o2, reach w f 0 [] p f2 o2 /\ is_cooler_at w f2 o2 = true).
Proof.
  intros w f L H p. unfold list_coolers in H.
  destruct (negb (file_exists w f)); try discriminate.
  destruct (visit VISIT_FUEL w f 0 []) as [e nodes] eqn:Ev. destruct e; try discriminate.
  injection H as <-. pose proof (visit_exact _ _ _ _ _ _ Ev) as Hv.
  rewrite in_app_iff, in_map_iff. split.
  - intros [Hroot|((q, o2) & E & Hin)].
    + left. destruct (is_cooler_at w f 0); [|destruct Hroot]. destruct Hroot as [<-|[]]. auto.
    + right. destruct q as [p' f2]. simpl in E. subst p'. apply filter_In in Hin. destruct Hin as [Hin Hc].
      simpl in Hc. exists f2, o2. split; auto. now apply Hv.
  - intros [[-> Hc]|(f2 & o2 & R & Hc)].
    + left. rewrite Hc. simpl. auto.
    + right. exists (p, f2, o2). split; auto. apply filter_In. split; auto. now apply Hv.
Qed.

Definition no_ext (w : world) (f : fid) : Prop :=
  forall o a ls k l, obj_at w f o = Some (Group a ls) -> In (k, l) ls -> is_ext l = false.
Definition nodup_keys (w : world) (f : fid) : Prop :=
  forall o a ls, obj_at w f o = Some (Group a ls) -> NoDup (map fst ls).

Lemma assoc_in : forall X n (x : X) l, assoc n l = Some x -> In (n, x) l.
Proof.
  induction l as [|[m y] r IH]; simpl; intros H; try discriminate.
  destruct (S.eqb n m) eqn:E; [apply S.eqb_eq in E; subst; injection H as <-; auto|auto].
Qed.

Lemma in_assoc_nodup : forall X n (x : X) l, NoDup (map fst l) -> In (n, x) l -> assoc n l = Some x.
Proof.
  induction l as [|[m y] r IH]; simpl; intros Hnd Hin; [tauto|].
  inversion Hnd as [|? ? Hnot Hnd']; subst.
  destruct Hin as [E|Hin].
  - injection E as -> ->. now rewrite S.eqb_refl.
  - destruct (S.eqb n m) eqn:E; [|auto]. apply S.eqb_eq in E. subst m.
    exfalso. apply Hnot. apply in_map_iff. exists (n, x). auto.
Qed.

Lemma walk_same_file : forall k w x f o p f1 o1, no_ext w f ->
  walk k w x f o p = Found f1 o1 -> f1 = f.
Proof.
  induction k; simpl; intros w x f o p f1 o1 Hne H; try discriminate.
  destruct p as [|n rest]; [now injection H as <- <-|].
  destruct (obj_at w f o) as [[a ls|d]|] eqn:E; try discriminate.
  destruct (assoc n ls) as [l|] eqn:El; try discriminate.
  pose proof (Hne _ _ _ _ _ E (assoc_in _ _ _ _ El)) as Hx.
  destruct l; simpl in Hx; try discriminate; eauto.
Qed.

Lemma follow_same_file : forall w f l f1 o1, no_ext w f -> is_ext l = false ->
  follow w f l = Found f1 o1 -> f1 = f.
Proof.
  intros w f l f1 o1 Hne Hx. unfold follow. generalize FUEL; intro K.
  destruct l; simpl in Hx; try discriminate; intro H.
  - now injection H as <- _.
  - eapply walk_same_file; eauto.
Qed.

(** soundness: every listed path is a path of link names that resolves, inside the file, to the listed object *)
Lemma vstep_resolves : forall w f o name nm f1 o1, no_ext w f -> nodup_keys w f ->
  vstep w f o name nm f1 o1 -> f1 = f /\ exists k, nm = name ++ [k] /\ resolves_from w f o [k] f o1.
Proof.
  intros w f o name nm f1 o1 Hne Hnd (a & ls & k & l & E & Hin & -> & Hf).
  pose proof (Hne _ _ _ _ _ E Hin) as Hx.
  assert (f1 = f) as -> by (eapply follow_same_file; eauto).
  split; auto. exists k. split.
  - destruct l; simpl in Hx; try discriminate; reflexivity.
  - eapply resolves_step; eauto; [|apply resolves_nil].
    unfold lookup_link. rewrite E. apply in_assoc_nodup; eauto.
Qed.

Lemma reach_resolves : forall w f0 o name p f2 o2, reach w f0 o name p f2 o2 ->
  no_ext w f0 -> nodup_keys w f0 ->
  f2 = f0 /\ exists q, q <> [] /\ p = name ++ q /\ resolves_from w f0 o q f0 o2.
Proof.
  intros w f0 o name p f2 o2 R.
  induction R as [f o name nm f1 o1 S|f o name nm f1 o1 p f2 o2 S R IH]; intros Hne Hnd.
  - destruct (vstep_resolves _ _ _ _ _ _ _ Hne Hnd S) as (-> & k & -> & Hr).
    split; auto. exists [k]. split; [discriminate|auto].
  - destruct (vstep_resolves _ _ _ _ _ _ _ Hne Hnd S) as (-> & k & -> & Hr).
    destruct (IH Hne Hnd) as (-> & q & Hq & -> & Hr2). split; auto.
    exists (k :: q). split; [discriminate|]. split; [now rewrite <- app_assoc|].
    change (k :: q) with ([k] ++ q). eapply resolves_app; eauto.
Qed.

(** completeness: if the traversal finished, every path of link names that resolves was visited *)
Lemma resolves_reach : forall w f, no_ext w f ->
  forall q k o name nodes f2 o2, visit k w f o name = (Ok, nodes) -> q <> [] ->
  resolves_from w f o q f2 o2 -> reach w f o name (name ++ q) f2 o2.
Proof.
  intros w f Hne. induction q as [|n rest IH]; intros k o name nodes f2 o2 Hv Hq Hr; [congruence|].
  destruct k; [discriminate|]. rewrite visit_unfold in Hv.
  destruct (resolves_step_inv _ _ _ _ _ _ _ Hr) as (l & Hl & Hrest). unfold lookup_link in Hl.
  destruct (obj_at w f o) as [[a ls|d]|] eqn:Eo; try discriminate.
  destruct (open_children w f name ls) as [cs|] eqn:Eoc; try discriminate.
  destruct (go_inv _ _ _ Hv) as (A & _).
  pose proof (assoc_in _ _ _ _ Hl) as Hin. pose proof (Hne _ _ _ _ _ Eo Hin) as Hx.
  destruct (A (child_name name n l) (follow w f l)) as (f1 & o1 & sub & Ef & Hsub).
  { rewrite (open_children_inv _ _ _ _ _ Eoc). apply in_map_iff. exists (n, l). auto. }
  assert (f1 = f) as -> by (eapply follow_same_file; eauto).
  assert (child_name name n l = name ++ [n]) as Hnm by (destruct l; simpl in Hx; try discriminate; reflexivity).
  rewrite Hnm in Hsub.
  assert (vstep w f o name (name ++ [n]) f o1) as S1 by (exists a, ls, n, l; rewrite Hnm; auto).
  specialize (Hrest _ _ Ef). destruct rest as [|n2 rest2].
  - destruct Hrest as [[|j] Hj]; [discriminate|]. injection Hj as <- <-. now apply reach_one.
  - replace (name ++ n :: n2 :: rest2) with ((name ++ [n]) ++ n2 :: rest2) by (now rewrite <- app_assoc).
    eapply reach_more; eauto. eapply IH; eauto. discriminate.
Qed.

(** on a file without external links (and with unique member names), whenever list_coolers
    returns at all - i.e. no link cycle exhausted the traversal and no member dangles - it lists exactly the
    member paths that resolve to an object tagged as a cooler, plus "/" when the root is one *)
Theorem listing_exact : forall w f L, no_ext w f -> nodup_keys w f -> list_coolers w f = (Ok, L) ->
  forall p, In p L <-> exists o2, resolves w f p f o2 /\ is_cooler_at w f o2 = true.
Proof.
  intros w f L Hne Hnd H p. rewrite (listing_exact_reach _ _ _ H). split.
  - intros [[-> Hc]|(f2 & o2 & R & Hc)].
    + exists 0%nat. split; auto. apply resolves_nil.
    + destruct (reach_resolves _ _ _ _ _ _ _ R Hne Hnd) as (-> & q & Hq & -> & Hr). exists o2. auto.
  - intros (o2 & Hr & Hc). destruct p as [|n rest].
    + left. split; auto. destruct Hr as [j Hj]. destruct j; [discriminate|]. simpl in Hj. now injection Hj as <-.
    + right. exists f, o2. split; auto.
      unfold list_coolers in H. destruct (negb (file_exists w f)); try discriminate.
      destruct (visit VISIT_FUEL w f 0 []) as [e nodes] eqn:Ev. destruct e; try discriminate.
      change (n :: rest) with ([] ++ n :: rest). eapply resolves_reach; eauto. discriminate.
Qed.

(** f::g and f::/g denote the same group path (parse_cooler_uri prepends the slash; HDF5 path syntax) *)
Theorem uri_slash : forall g, path_of_string (uri_group g) = path_of_string g.
Proof.
  intros g. unfold uri_group, path_of_string. destruct g as [|c r]; [reflexivity|].
  destruct (Coq.Strings.Ascii.eqb c SLASH) eqn:E; [reflexivity|].
  simpl. reflexivity.
Qed.

Lemma leading_slash_ignored : forall s, path_of_string (Coq.Strings.String.String SLASH s) = path_of_string s.
Proof. intros. reflexivity. Qed.

Definition obj_no_ext_b (x : obj) : bool :=
  match x with Group _ ls => forallb (fun kl => negb (is_ext (snd kl))) ls | Dataset _ => true end.
Fixpoint nodup_str_b (l : list string) : bool :=
  match l with [] => true | x :: r => negb (existsb (S.eqb x) r) && nodup_str_b r end.
Definition obj_nodup_b (x : obj) : bool :=
  match x with Group _ ls => nodup_str_b (map fst ls) | Dataset _ => true end.
Definition file_wf_b (w : world) (f : fid) : bool :=
  match get_store w f with
  | Some st => forallb obj_no_ext_b st && forallb obj_nodup_b st
  | None => true
  end.

Lemma nodup_str_b_sound : forall l, nodup_str_b l = true -> NoDup l.
Proof.
  induction l as [|x r IH]; simpl; intros H; [constructor|].
  apply andb_true_iff in H. destruct H as [H1 H2]. constructor; auto.
  intro Hin. apply negb_true_iff in H1.
  assert (existsb (S.eqb x) r = true) as K; [|congruence].
  apply existsb_exists. exists x. split; auto. apply S.eqb_refl.
Qed.

Lemma file_wf_b_sound : forall w f, file_wf_b w f = true -> no_ext w f /\ nodup_keys w f.
Proof.
  intros w f H. unfold file_wf_b in H. split.
  - intros o a ls k l E Hin. unfold obj_at in E. destruct (get_store w f) as [st|]; try discriminate.
    apply andb_true_iff in H. destruct H as [H _]. rewrite forallb_forall in H.
    specialize (H _ (nth_error_In _ _ E)). simpl in H. rewrite forallb_forall in H.
    specialize (H _ Hin). simpl in H. now apply negb_true_iff in H.
  - intros o a ls E. unfold obj_at in E. destruct (get_store w f) as [st|]; try discriminate.
    apply andb_true_iff in H. destruct H as [_ H]. rewrite forallb_forall in H.
    specialize (H _ (nth_error_In _ _ E)). simpl in H. now apply nodup_str_b_sound.
Qed.

(** a slot = (file, group object, member name).  [walk_av s] is [walk] that refuses to look up slot s:
    a Found result certifies that the traversal never passed through s (decidable on the store). *)
Definition slot := (fid * nat * string)%type.
Definition slot_eqb (s : slot) (f : fid) (o : nat) (n : string) : bool :=
  fid_eqb (fst (fst s)) f && Nat.eqb (snd (fst s)) o && S.eqb (snd s) n.

Fixpoint walk_av (s : slot) (fuel : nat) (w : world) (x : bool) (f : fid) (o : nat) (p : path) : res :=
  match fuel with
  | O => Loop
  | S k =>
    match p with
    | [] => Found f o
    | n :: rest =>
      if slot_eqb s f o n then Missing false else
      match obj_at w f o with
      | Some (Group _ ls) =>
        match assoc n ls with
        | None => Missing (negb x && negb (is_nil rest))
        | Some (Hard o') => walk_av s k w x f o' rest
        | Some (Soft q) => walk_av s k w x f O (q ++ rest)
        | Some (Ext f' q) => if file_exists w f' then walk_av s k w true f' O (q ++ rest) else Missing false
        end
      | _ => Missing (negb x)
      end
    end
  end.

Lemma walk_av_kept : forall s k w w' x f o p f1 o1, kept (slot_eqb s) w w' ->
  walk_av s k w x f o p = Found f1 o1 -> walk k w' x f o p = Found f1 o1.
Proof.
  induction k; simpl; intros w w' x f o p f1 o1 K H; try discriminate.
  destruct p as [|n rest]; auto.
  destruct (slot_eqb s f o n) eqn:Es; try discriminate.
  destruct (obj_at w f o) as [[a ls|d]|] eqn:E; try discriminate.
  destruct (assoc n ls) as [l|] eqn:El; try discriminate.
  assert (lookup_link w' f o n = Some l) as Hl by (apply K; auto; unfold lookup_link; now rewrite E).
  unfold lookup_link in Hl. destruct (obj_at w' f o) as [[a' ls'|]|]; try discriminate. rewrite Hl.
  destruct l; eauto. destruct (file_exists w f0) eqn:Ex; try discriminate. rewrite (proj1 K _ Ex). eauto.
Qed.

(** [unlinked s w w']: w' is w with the member of slot s removed, nothing else touched *)
Definition unlinked (s : slot) (w w' : world) : Prop :=
  let '(fs, gs, n) := s in
  exists a ls, obj_at w fs gs = Some (Group a ls) /\ w' = set_obj w fs gs (Group a (remove_key n ls)).

(** frame of an unlink: a traversal that avoided the slot resolves exactly as before *)
Lemma unlinked_kept : forall fs gs n w w', unlinked (fs, gs, n) w w' -> kept (slot_eqb (fs, gs, n)) w w'.
Proof.
  intros fs gs n w w' (a & ls & E & ->). split; [intros; now rewrite set_obj_exists|].
  intros f o m l Hs Hl. unfold lookup_link in *.
  destruct (fid_dec f fs) as [->|Nf]; [destruct (Nat.eq_dec o gs) as [->|No]|]; try (now rewrite set_obj_other by auto).
  erewrite set_obj_at by eauto. rewrite E in Hl. rewrite assoc_remove_other; auto.
  intros ->. unfold slot_eqb in Hs. simpl in Hs.
  rewrite (proj2 (fid_eqb_eq fs fs) eq_refl), Nat.eqb_refl, S.eqb_refl in Hs. discriminate.
Qed.

Lemma del_link_ok : forall w f p w', del_link w f p = (Ok, w') ->
  exists par n fp gp, split_last p = Some (par, n) /\ resolve w f par = Found fp gp /\
                      unlinked (fp, gp, n) w w' /\ lookup_link w' fp gp n = None.
Proof.
  unfold del_link; intros w f p w' H.
  destruct (split_last p) as [[par n]|]; try discriminate.
  destruct (resolve w f par) as [fp gp| |] eqn:Er; try discriminate.
  destruct (obj_at w fp gp) as [[a ls|]|] eqn:Eg; try discriminate.
  destruct (assoc n ls) eqn:En; try discriminate. injection H as <-.
  exists par, n, fp, gp. repeat split; auto.
  - exists a, ls. auto.
  - unfold lookup_link. erewrite set_obj_at by eauto. apply assoc_remove_same.
Qed.

(** the steps of a successful same-file mv: the source resolves, the hard link is added, the source link is removed *)
Lemma mv_steps : forall w f sp dp w',
  _copy w f sp f dp false false true false = (Ok, w') ->
  exists fo o w2 par n fp gp, resolve w f sp = Found fo o /\ add_link w f dp (Hard o) fo EOS EOS = (Ok, w2) /\
    world_le w w2 /\ del_link w2 f sp = (Ok, w') /\ sp = par ++ [n] /\ split_last sp = Some (par, n) /\
    resolve w2 f par = Found fp gp /\ unlinked (fp, gp, n) w2 w' /\ lookup_link w' fp gp n = None.
Proof.
  intros w f sp dp w' H. destruct (copy_hard_ok w f sp dp true w' H) as (fo & o & w2 & Er & Ea & Ed).
  destruct (del_link_ok _ _ _ _ Ed) as (par & n & fp & gp & Hs & Erp & U & Hnone).
  exists fo, o, w2, par, n, fp, gp. repeat split; auto using split_last_app.
  assert (EOS <> Ok) as NE by discriminate. pose proof (add_link_le w f dp (Hard o) fo EOS EOS NE NE) as L. now rewrite Ea in L.
Qed.

(** mv (same file): after a successful move the source NAME is unbound in its parent group *)
Theorem mv_source_unbound : forall w f sp dp w',
  _copy w f sp f dp false false true false = (Ok, w') ->
  exists w2 par n fp gp, sp = par ++ [n] /\ del_link w2 f sp = (Ok, w') /\ world_le w w2 /\
    resolve w2 f par = Found fp gp /\ lookup_link w' fp gp n = None.
Proof.
  intros w f sp dp w' H. destruct (mv_steps _ _ _ _ _ H) as (fo & o & w2 & par & n & fp & gp & _ & _ & L & Ed & Hs & _ & Erp & _ & Hnone).
  exists w2, par, n, fp, gp. auto.
Qed.

(** the decidable guard: in the store AFTER the new hard link is made, the traversal of the destination
    path does not pass through the source's own link slot (parent group of the source, source name).
    It fails exactly for destinations inside the moved group or behind a link back to it (D23). *)
Definition mv_guard (w : world) (f : fid) (sp dp : path) : bool :=
  match resolve w f sp with
  | Found fo o =>
      match add_link w f dp (Hard o) fo EOS EOS, split_last sp with
      | (Ok, w2), Some (par, n) =>
          match resolve w2 f par with
          | Found fp gp =>
              match walk_av (fp, gp, n) FUEL w2 false f 0 dp with
              | Found f1 o1 => fid_eqb f1 fo && Nat.eqb o1 o
              | _ => false
              end
          | _ => false
          end
      | _, _ => false
      end
  | _ => false
  end.

(** for a same-file mv that succeeds and passes the guard, the destination resolves to THE VERY
    OBJECT the source denoted, the source name is unbound, and every traversal (from any start object, of
    any path) that did not pass through the source's link slot resolves exactly as before *)
Theorem mv_spec : forall w f sp dp w',
  _copy w f sp f dp false false true false = (Ok, w') -> mv_guard w f sp dp = true ->
  exists fo o par n fp gp,
    resolve w f sp = Found fo o /\ resolve w' f dp = Found fo o /\
    sp = par ++ [n] /\ lookup_link w' fp gp n = None /\
    forall k x f0 o0 q f1 o1, walk_av (fp, gp, n) k w x f0 o0 q = Found f1 o1 -> walk k w' x f0 o0 q = Found f1 o1.
Proof.
  intros w f sp dp w' H G.
  destruct (mv_steps _ _ _ _ _ H) as (fo & o & w2 & par & n & fp & gp & Er & Ea & L & _ & Hsp & Hs & Erp & U & Hnone).
  unfold mv_guard in G. rewrite Er, Ea, Hs, Erp in G.
  destruct (walk_av (fp, gp, n) FUEL w2 false f 0 dp) as [f1 o1| |] eqn:Eav; try discriminate.
  apply andb_true_iff in G. destruct G as [G1 G2]. apply fid_eqb_eq in G1. apply Nat.eqb_eq in G2. subst f1 o1.
  exists fo, o, par, n, fp, gp. split; auto. split; [|split; [exact Hsp|split; auto]].
  - unfold resolve. eapply walk_av_kept; [apply unlinked_kept|]; eauto.
  - intros k x f0 o0 q f1 o1. apply walk_av_kept.
    eapply kept_trans; [apply world_le_kept|apply unlinked_kept]; eauto.
Qed.

(** acyclicity as a rank that strictly decreases along every member that opens; [all_open]: no member dangles
    or loops.  (Any acyclic link graph has such a rank bounded by its number of objects.) *)
Definition ranked (w : world) (rk : fid -> nat -> nat) : Prop :=
  forall f o a ls k l f1 o1, obj_at w f o = Some (Group a ls) -> In (k, l) ls ->
    follow w f l = Found f1 o1 -> (rk f1 o1 < rk f o)%nat.
Definition all_open (w : world) : Prop :=
  forall f o a ls k l, obj_at w f o = Some (Group a ls) -> In (k, l) ls -> exists f1 o1, follow w f l = Found f1 o1.

Lemma open_children_total : forall w f name ls,
  (forall k l, In (k, l) ls -> exists f1 o1, follow w f l = Found f1 o1) ->
  open_children w f name ls = Some (map (fun kl => (child_name name (fst kl) (snd kl), follow w f (snd kl))) ls).
Proof.
  unfold open_children. induction ls as [|[k l] r IH]; simpl; intros H; auto.
  destruct (H k l (or_introl eq_refl)) as (f1 & o1 & Ef). rewrite Ef.
  rewrite IH by (intros; eapply H; eauto). reflexivity.
Qed.

Lemma go_total : forall vis cs,
  (forall nm r, In (nm, r) cs -> exists f1 o1, r = Found f1 o1 /\ fst (vis f1 o1 nm) = Ok) ->
  fst (go vis cs) = Ok.
Proof.
  induction cs as [|[nm r] cs IH]; simpl; intros H; auto.
  destruct (H nm r (or_introl eq_refl)) as (f1 & o1 & -> & Hv).
  destruct (vis f1 o1 nm) as [e sub]. simpl in Hv. subst e.
  assert (fst (go vis cs) = Ok) as Hg by (apply IH; intros; eapply H; eauto).
  destruct (go vis cs) as [e t]. simpl in Hg. now subst e.
Qed.

(** a budget above the rank of the start object suffices: the traversal terminates without an error *)
Theorem visit_total : forall w rk, ranked w rk -> all_open w ->
  forall k f o name, (rk f o < k)%nat -> fst (visit k w f o name) = Ok.
Proof.
  intros w rk Hr Ha. induction k; intros f o name Hk; [lia|].
  rewrite visit_unfold. destruct (obj_at w f o) as [[a ls|d]|] eqn:Eo; auto.
  rewrite open_children_total by (intros; eapply Ha; eauto).
  apply go_total. intros nm r Hin. apply in_map_iff in Hin. destruct Hin as ([k0 l] & E & Hin).
  simpl in E. injection E as <- <-.
  destruct (Ha _ _ _ _ _ _ Eo Hin) as (f1 & o1 & Ef). exists f1, o1. split; auto.
  apply IHk. pose proof (Hr _ _ _ _ _ _ _ _ Eo Hin Ef). lia.
Qed.

(** on an existing file of an acyclic world without dangling members whose depth is below the
    traversal budget, list_coolers returns a listing (which without external links is exact: listing_exact) *)
Theorem listing_total : forall w rk f, ranked w rk -> all_open w -> file_exists w f = true ->
  (rk f 0 < VISIT_FUEL)%nat -> exists L, list_coolers w f = (Ok, L).
Proof.
  intros w rk f Hr Ha Hex Hk. unfold list_coolers. rewrite Hex. simpl negb. cbv iota.
  pose proof (visit_total _ _ Hr Ha VISIT_FUEL f 0%nat [] Hk) as Hv.
  destruct (visit VISIT_FUEL w f 0 []) as [e nodes]. simpl in Hv. subst e. eauto.
Qed.

(** executable check of [ranked] and [all_open] for a given rank function *)
Definition obj_ranked_b (w : world) (rk : fid -> nat -> nat) (f : fid) (io : nat * obj) : bool :=
  match snd io with
  | Group _ ls => forallb (fun kl => match follow w f (snd kl) with
                                     | Found f1 o1 => Nat.ltb (rk f1 o1) (rk f (fst io))
                                     | _ => false
                                     end) ls
  | Dataset _ => true
  end.
Definition file_ranked_b (w : world) (rk : fid -> nat -> nat) (f : fid) : bool :=
  match get_store w f with
  | Some st => forallb (obj_ranked_b w rk f) (combine (seq 0 (List.length st)) st)
  | None => true
  end.

Lemma nth_error_combine_seq : forall X (st : list X) o x b, nth_error st o = Some x ->
  In ((b + o)%nat, x) (combine (seq b (List.length st)) st).
Proof.
  induction st as [|y r IH]; intros o x b H; [destruct o; discriminate|].
  destruct o; simpl in *.
  - injection H as <-. left. f_equal. lia.
  - right. replace (b + S o)%nat with (S b + o)%nat by lia. now apply IH.
Qed.

(** [fid] has the two constructors FA and FB only, so the two checks cover every file *)
Lemma file_ranked_b_sound : forall w rk, file_ranked_b w rk FA = true -> file_ranked_b w rk FB = true ->
  ranked w rk /\ all_open w.
Proof.
  intros w rk HA HB.
  assert (forall f o a ls k l, obj_at w f o = Some (Group a ls) -> In (k, l) ls ->
            match follow w f l with Found f1 o1 => Nat.ltb (rk f1 o1) (rk f o) = true | _ => False end) as K.
  { intros f o a ls k l E Hin.
    assert (file_ranked_b w rk f = true) as Hf by (destruct f; auto).
    unfold file_ranked_b in Hf. unfold obj_at in E. destruct (get_store w f) as [st|]; try discriminate.
    rewrite forallb_forall in Hf. specialize (Hf _ (nth_error_combine_seq _ _ _ _ 0%nat E)).
    unfold obj_ranked_b in Hf. simpl in Hf. rewrite forallb_forall in Hf. specialize (Hf _ Hin). simpl in Hf.
    destruct (follow w f l); auto; discriminate. }
  split.
  - intros f o a ls k l f1 o1 E Hin Ef. specialize (K _ _ _ _ _ _ E Hin). rewrite Ef in K. now apply Nat.ltb_lt.
  - intros f o a ls k l E Hin. specialize (K _ _ _ _ _ _ E Hin). destruct (follow w f l); eauto; tauto.
Qed.

(** a candidate for the rank [rk] of [ranked]: the height of the member graph below an object, on a budget.
    Nothing is proved of it; for a given world [file_ranked_b] decides whether it is one (C15 ex_C15_listing_total). *)
Fixpoint height (k : nat) (w : world) (f : fid) (o : nat) : nat :=
  match k with
  | O => O
  | S k' =>
      match obj_at w f o with
      | Some (Group _ ls) =>
          S (fold_right (fun kl acc => Nat.max acc (match follow w f (snd kl) with
                                                     | Found f1 o1 => height k' w f1 o1
                                                     | _ => O
                                                     end)) O ls)
      | _ => O
      end
  end.

(** The example worlds of the statements about one concrete store. *)
Definition tiny (k : Z) : cspec :=
  mkSpec [("pixels"%string, Table [("count"%string, Fresh (PInts [k]))])] [("format"%string, AStr MAGIC)].
Definition sx : path := ["x"%string].
Definition sxy : path := ["x"%string; "y"%string].

(** D14a: after  ln f::/ f::/a/b  the traversal of list_coolers exhausts its budget (RecursionError) *)
Definition w_cycle : world :=
  run world0 [OCreate FA [] false (tiny 1); OCopy FA [] FA ["a"; "b"]%string false true false false].

(** D14b: a collection reached through an external link is listed under the target's own path *)
Definition w_ext : world :=
  run world0 [OCreate FA sx false (tiny 1); OCopy FA sx FB ["e"%string] false false false true].

(** D14c: a dangling link makes the listing fail (AttributeError) *)
Definition w_dangling : world :=
  run world0 [OCreate FA sx false (tiny 1); OCopy FA sx FA ["y"%string] false false false true;
              OCopy FA sx FA ["z"%string] false false true false].

(** non-vacuity of listing_exact: a file with a collection, a soft link to it and a nested collection *)
Definition w_listed : world :=
  run world0 [OCreate FA sx false (tiny 1); OCopy FA sx FA ["y"%string] false false false true;
              OCreate FA sxy false (tiny 2)].

Lemma go_first_fails : forall vis nm f o r, fst (vis f o nm) <> Ok -> fst (go vis ((nm, Found f o) :: r)) <> Ok.
Proof.
  intros vis nm f o r H. simpl. destruct (vis f o nm) as [e sub]. simpl in H. destruct e; simpl; auto.
Qed.

Lemma w_cycle_objs :
  obj_at w_cycle FA 0 = Some (Group [("format"%string, AStr MAGIC)] [("a"%string, Hard 3%nat); ("pixels"%string, Hard 1%nat)]) /\
  obj_at w_cycle FA 3 = Some (Group [] [("b"%string, Hard 0%nat)]).
Proof. vm_compute. split; reflexivity. Qed.

(** on the file with a hard link to an ancestor NO traversal budget suffices: list_coolers cannot return *)
Theorem listing_cycle_no_fuel : forall k name, fst (visit k w_cycle FA 0 name) <> Ok.
Proof.
  destruct w_cycle_objs as [E0 E3].
  assert (forall k, (forall name, fst (visit k w_cycle FA 0 name) <> Ok) /\
                    (forall name, fst (visit k w_cycle FA 3 name) <> Ok)) as K.
  { induction k as [|k [IH0 IH3]]; [split; intro; simpl; discriminate|]. split; intro name.
    - rewrite visit_unfold, E0. unfold open_children. simpl open_children_gen.
      apply go_first_fails. apply IH3.
    - rewrite visit_unfold, E3. unfold open_children. simpl open_children_gen.
      apply go_first_fails. apply IH0. }
  intros k name. apply K.
Qed.

(** Proofs about the k-way merge model (Model/Merge.v): C07 and C06.
    merge_breakpoints yields a partition of the rows; over any such partition the merger's epochs concatenate to
    the group-by of all input records (Proofs/GroupBy.v); a merge pass and the unordered ingestion are that
    group-by followed by create().  The statements about order, chunking, buffer size and associativity are
    then properties of the group-by under the laws the aggregation function obeys (sum, int64 sum, max, min).
    The second half is about the executable multi-column model: what merge_coolers accepts and stores
    (compatibility, dtype range checks, int64 wrap-around of sums and of the recorded total).
    In order:
    - merge_breakpoints: bisect_right, mb_loop, the combined index as a column sum; [breakpoints_partition]
    - Section Merger: the index as a count of records ([cnt]), epochs as row-range filters; [merger_exact]
    - [merged_px]: [merger_groupby], [merger_canon], order independence, associativity
    - Section Sorting: sort_values, validate_pixels, check_chunk; then mapM
    - Sections Unordered, UnorderedExact: create_g, the edge list tiles the chunks; [unordered_exact],
      independence, [two_pass_edges_ok]
    - merge_coolers: [compatible_same_axes], [merge_coolers_unfold], [refuse_incompatible]; Section Checked,
      wrap64, column projection; [merge_coolers_px], [no_silent_overflow]
    - Sections KeyChecks, IngestionSucceeds: [KeyOK], [merge_g_total], [unordered_total], [unordered_correct]
    - the int64 row sum obeys both laws: [create_from_unordered_exact]
    - Section Extremum: the model's max and min (a fold from the right) select an extremum in the sense of
      [IsExtremum] of Proofs/GroupBy.v, hence obey both laws; the C06 corollaries for them
    - [column_canon], [total_exact_within_int64] *)
From Cooler Require Import Model.Merge Proofs.PixelsProofs Proofs.BinsProofs.
From Cooler Require Export Proofs.GroupBy.
From Coq Require Import Sorted Permutation ZifyBool.

(** monotone (non-decreasing) offset array, positional form *)
Definition MonoN (l : list Z) : Prop :=
  forall i j, (i <= j < length l)%nat -> nth i l 0 <= nth j l 0.

Lemma ssorted_mono l : StronglySorted Z.le l -> MonoN l.
Proof.
  exact (sorted_le_nth l).
Qed.

Lemma ssorted_le_last (b : nat) rest : StronglySorted le (b :: rest) -> (b <= last rest b)%nat.
Proof. intros H. apply (forall_last (le b)). inversion H; subst. now constructor. Qed.

Lemma count_le_facts l x :
  (count_le l x <= length l)%nat /\
  (forall i, (i < count_le l x)%nat -> nth i l 0 <= x) /\
  ((count_le l x < length l)%nat -> x < nth (count_le l x) l 0).
Proof.
  induction l as [|y r (IH1 & IH2 & IH3)]; cbn [count_le length].
  - repeat split; intros; lia.
  - destruct (y <=? x) eqn:E.
    + repeat split; [lia| |intros; cbn [nth]; apply IH3; lia].
      intros [|i] Hi; cbn [nth]; [lia|apply IH2; lia].
    + repeat split; [lia|intros; lia|intros _; cbn [nth]; lia].
Qed.

Lemma bisect_right_facts ci x lo : (lo <= length ci)%nat ->
  let r := bisect_right ci x lo in
  (lo <= r <= length ci)%nat /\
  (forall i, (lo <= i < r)%nat -> nth i ci 0 <= x) /\
  ((r < length ci)%nat -> x < nth r ci 0).
Proof.
  intros Hlo r. unfold bisect_right in r.
  destruct (count_le_facts (skipn lo ci) x) as (F1 & F2 & F3).
  rewrite skipn_length in F1, F3. subst r. repeat split; try lia.
  - intros i Hi. specialize (F2 (i - lo)%nat ltac:(lia)). rewrite nth_skipn in F2.
    replace (lo + (i - lo))%nat with i in F2 by lia. exact F2.
  - intros Hr. specialize (F3 ltac:(lia)). rewrite nth_skipn in F3. exact F3.
Qed.

Lemma bisect_right_gt ci x lo : (lo < length ci)%nat -> nth lo ci 0 <= x ->
  (lo < bisect_right ci x lo <= length ci)%nat.
Proof.
  intros Hlo Hx. destruct (bisect_right_facts ci x lo ltac:(lia)) as (B1 & _ & B3).
  destruct (Nat.eq_dec (bisect_right ci x lo) lo) as [E|]; [|lia]. rewrite E in B3. specialize (B3 Hlo). lia.
Qed.

(** the loop terminates within [length ci - 1 - lo] iterations and yields a strictly increasing
    list of positions whose last element carries all records *)
Lemma mb_loop_ok ci buf nnz : MonoN ci -> 0 <= buf ->
  nnz = nth (length ci - 1) ci 0 ->
  forall fuel lo start,
  (S lo < length ci)%nat -> start = nth lo ci 0 -> (length ci - 1 - lo <= fuel)%nat ->
  exists p, mb_loop fuel ci buf nnz lo start = Ok p /\ p <> [] /\
            StronglySorted lt (lo :: p) /\ Forall (fun h => (h < length ci)%nat) p /\
            nth (last p O) ci 0 = nnz.
Proof.
  intros HM Hbuf Hnnz. induction fuel as [|f IH]; intros lo start Hlo Hstart Hfuel; [lia|].
  cbn [mb_loop].
  assert (Hr : (lo < bisect_right ci (Z.min (start + buf) nnz) lo <= length ci)%nat).
  { apply bisect_right_gt; [lia|]. subst start nnz. apply Z.min_glb; [lia|]. apply HM. lia. }
  set (r := bisect_right ci _ lo) in *.
  set (hi := if (r - 1 =? lo)%nat then S (r - 1) else (r - 1)%nat).
  assert (Hhi : (lo < hi < length ci)%nat) by (subst hi; destruct (Nat.eqb_spec (r - 1) lo); lia).
  clearbody hi. clear r Hr.
  destruct (nth_error ci hi) as [v|] eqn:Ev; [|apply nth_error_None in Ev; lia].
  assert (Hv : v = nth hi ci 0) by (symmetry; now apply nth_error_nth).
  destruct (v =? nnz) eqn:Evn.
  - exists [hi]. repeat split; [discriminate| | |cbn [last]; lia]; repeat constructor; lia.
  - assert (Hhi2 : (S hi < length ci)%nat).
    { destruct (Nat.eq_dec hi (length ci - 1)) as [E|]; [|lia]. rewrite E in Hv. lia. }
    destruct (IH hi v Hhi2 Hv ltac:(lia)) as (p & -> & Pne & PS & PF & PL).
    exists (hi :: p). repeat split; [discriminate| |constructor; [lia|exact PF]|destruct p; [contradiction|exact PL]].
    constructor; [exact PS|]. constructor; [lia|].
    inversion PS as [|? ? _ HF]; subst. eapply Forall_impl; [|exact HF]. cbn. intros; lia.
Qed.

(** entry i of the combined index: the sum of the inputs' offsets at row i *)
Definition colsum (idxs : list (list Z)) (i : nat) : Z :=
  fold_right (fun a s => nth i a 0 + s) 0 idxs.

Lemma vadd_facts a : forall b, length a = length b ->
  length (vadd a b) = length a /\ forall i, nth i (vadd a b) 0 = nth i a 0 + nth i b 0.
Proof.
  induction a as [|x a IH]; intros [|y b] Hl; cbn [length] in Hl; try discriminate; cbn [vadd length].
  - split; [reflexivity|]. intros [|i]; reflexivity.
  - destruct (IH b ltac:(lia)) as (L & N). split; [lia|]. intros [|i]; cbn [nth]; [reflexivity|apply N].
Qed.

Lemma fold_vadd_facts idxs : forall acc,
  Forall (fun a => length a = length acc) idxs ->
  length (fold_left vadd idxs acc) = length acc /\
  forall i, nth i (fold_left vadd idxs acc) 0 = nth i acc 0 + colsum idxs i.
Proof.
  induction idxs as [|a idxs IH]; intros acc HF; cbn [fold_left colsum fold_right].
  - split; [reflexivity|]. intros; lia.
  - inversion HF as [|? ? Ha HF']; subst.
    destruct (vadd_facts acc a ltac:(lia)) as (L & N).
    destruct (IH (vadd acc a)) as (L' & N').
    { eapply Forall_impl; [|exact HF']. cbn. intros; lia. }
    split; [lia|]. intros i. rewrite N', N. fold (colsum idxs i). lia.
Qed.

Lemma combined_index_facts idxs L :
  Forall (fun a => length a = L) idxs -> idxs <> [] ->
  length (combined_index idxs) = L /\ forall i, nth i (combined_index idxs) 0 = colsum idxs i.
Proof.
  intros HF Hne. unfold combined_index.
  assert (HL : length (hd [] idxs) = L).
  { destruct idxs; [contradiction|]. inversion HF; subst. reflexivity. }
  destruct (fold_vadd_facts idxs (repeat 0 (length (hd [] idxs)))) as (A & B).
  { rewrite repeat_length, HL. exact HF. }
  rewrite repeat_length in A. split; [lia|]. intros i. rewrite B, nth_repeat. lia.
Qed.

Lemma colsum_zero idxs i : Forall (fun a => nth i a 0 = 0) idxs -> colsum idxs i = 0.
Proof.
  induction 1 as [|a t Ha _ IH]; [reflexivity|]. cbn [colsum fold_right]. fold (colsum t i). lia.
Qed.

Lemma colsum_mono idxs i j : Forall MonoN idxs -> Forall (fun a => (j < length a)%nat) idxs ->
  (i <= j)%nat -> colsum idxs i <= colsum idxs j.
Proof.
  induction idxs as [|a idxs IH]; intros HM HL Hij; cbn [colsum fold_right]; [lia|].
  inversion HM; inversion HL; subst. fold (colsum idxs i). fold (colsum idxs j).
  specialize (IH ltac:(assumption) ltac:(assumption) Hij).
  assert (nth i a 0 <= nth j a 0) by (match goal with H : MonoN a |- _ => apply H end; lia). lia.
Qed.

Lemma colsum_eq_each idxs i j : Forall MonoN idxs -> Forall (fun a => (j < length a)%nat) idxs ->
  (i <= j)%nat -> colsum idxs i = colsum idxs j ->
  Forall (fun a => nth i a 0 = nth j a 0) idxs.
Proof.
  induction idxs as [|a idxs IH]; intros HM HL Hij E; [constructor|].
  inversion HM as [|? ? Ma HM']; inversion HL as [|? ? La HL']; subst.
  cbn [colsum fold_right] in E. fold (colsum idxs i) in E. fold (colsum idxs j) in E.
  pose proof (colsum_mono idxs i j HM' HL' Hij).
  assert (nth i a 0 <= nth j a 0) by (apply Ma; lia).
  constructor; [lia|]. apply IH; auto. lia.
Qed.

(** Fuel L (the length of the index) is never exhausted because every iteration moves [lo]
    up by at least one; "every row from the last breakpoint on is empty in every input" comes from the
    combined index being a sum of monotone arrays: where the sum stands still, each summand does. *)
Theorem breakpoints_partition idxs L buf :
  idxs <> [] -> (2 <= L)%nat ->
  Forall (fun a => length a = L /\ MonoN a /\ nth 0 a 0 = 0) idxs -> 0 <= buf ->
  exists p, merge_breakpoints L idxs buf = Ok p /\
    hd 1%nat p = O /\ StronglySorted lt p /\ Forall (fun h => (h < L)%nat) p /\
    Forall (fun a => forall r, (last p O <= r < L)%nat -> nth r a 0 = nth (L - 1) a 0) idxs.
Proof.
  intros Hne HL HF Hbuf.
  assert (FL : Forall (fun a => length a = L) idxs) by (eapply Forall_impl; [|exact HF]; cbn; tauto).
  assert (FM : Forall MonoN idxs) by (eapply Forall_impl; [|exact HF]; cbn; tauto).
  destruct (combined_index_facts idxs L FL Hne) as (CL & CN).
  set (ci := combined_index idxs) in *.
  assert (FJ : forall j, (j < L)%nat -> Forall (fun a => (j < length a)%nat) idxs).
  { intros j Hj. eapply Forall_impl; [|exact FL]. cbn. intros; lia. }
  assert (CM : MonoN ci).
  { intros i j Hij. rewrite !CN. apply colsum_mono; [exact FM|apply FJ; lia|lia]. }
  assert (C0 : nth 0 ci 0 = 0).
  { rewrite CN. apply colsum_zero. eapply Forall_impl; [|exact HF]; cbn; tauto. }
  unfold merge_breakpoints. fold ci.
  destruct ci as [|c0 ci'] eqn:Eci; [cbn in CL; lia|]. rewrite <- Eci in *.
  destruct (mb_loop_ok ci buf (last ci 0) CM Hbuf (last_nth ci 0) L O 0 ltac:(lia) ltac:(lia) ltac:(lia))
    as (p & Ep & Pne & PS & PF & PLast).
  rewrite Ep. exists (O :: p). split; [reflexivity|]. split; [reflexivity|]. split; [exact PS|]. split.
  - constructor; [lia|]. rewrite CL in PF. exact PF.
  - rewrite last_cons.
    assert (Hlt : (last p O < L)%nat) by (apply (forall_last (fun h => (h < L)%nat)); constructor; [lia|now rewrite <- CL]).
    rewrite (last_nth ci 0), CL, !CN in PLast.
    pose proof (colsum_eq_each idxs (last p O) (L - 1) FM (FJ (L - 1)%nat ltac:(lia)) ltac:(lia) PLast) as HE.
    rewrite Forall_forall in *. intros a Ha r Hr. specialize (HE a Ha).
    destruct (HF a Ha) as (La & Ma & _).
    assert (nth (last p O) a 0 <= nth r a 0) by (apply Ma; lia).
    assert (nth r a 0 <= nth (L - 1) a 0) by (apply Ma; lia). lia.
Qed.

Section Merger.
Context {V : Type}.
Notation recd := (key * V)%type.

Definition rowof (p : recd) : Z := fst (fst p).
Definition RowSorted (px : list recd) : Prop := StronglySorted Z.le (map rowof px).
(** number of records in rows < b : the value of bin1_offset[b] *)
Definition cnt (px : list recd) (b : Z) : Z := zlen (filter (fun p => rowof p <? b) px).
Definition inrowsk (a b : Z) (k : key) : bool := (a <=? fst k) && (fst k <? b).
Definition inrows (a b : Z) (p : recd) : bool := inrowsk a b (fst p).

(** what the merger needs of an input cooler over n bins: rows non-decreasing and in range, and
    bin1_offset is the index of the pixel table (C02) *)
Record ValidIn (n : nat) (c : mcool V) : Prop := {
  vi_off : mc_off c = index_of n (mc_px c);
  vi_sorted : RowSorted (mc_px c);
  vi_range : Forall (fun p => 0 <= rowof p < Z.of_nat n) (mc_px c) }.

Definition allpx (inputs : list (mcool V)) : list recd := concat (map (@mc_px V) inputs).

Lemma cnt_cons p t x : cnt (p :: t) x = (if rowof p <? x then 1 else 0) + cnt t x.
Proof. unfold cnt, zlen. cbn [filter]. destruct (rowof p <? x); cbn [length]; lia. Qed.
Lemma cnt_nonneg px x : 0 <= cnt px x. Proof. unfold cnt, zlen. lia. Qed.
Lemma cnt_zero px x : Forall (fun q => x <= rowof q) px -> cnt px x = 0.
Proof.
  intros H. unfold cnt. rewrite filter_none; [reflexivity|].
  rewrite Forall_forall in H. intros q Hq. specialize (H q Hq). lia.
Qed.
Lemma cnt_mono px a b : a <= b -> cnt px a <= cnt px b.
Proof.
  intros H. induction px as [|p t IH]; [reflexivity|]. rewrite !cnt_cons.
  destruct (rowof p <? a) eqn:E1, (rowof p <? b) eqn:E2; lia.
Qed.
Lemma cnt_all px x : Forall (fun q => rowof q < x) px -> cnt px x = zlen px.
Proof.
  intros H. unfold cnt. rewrite filter_all; [reflexivity|].
  rewrite Forall_forall in H. intros q Hq. specialize (H q Hq). lia.
Qed.
Lemma cnt_le_len px x : cnt px x <= zlen px.
Proof.
  induction px as [|p t IH]; [reflexivity|]. rewrite cnt_cons. unfold zlen in *. cbn [length].
  destruct (rowof p <? x); lia.
Qed.
Lemma cnt_all_inv px x : cnt px x = zlen px -> Forall (fun q => rowof q < x) px.
Proof.
  induction px as [|p t IH]; intros H; [constructor|]. rewrite cnt_cons in H. unfold zlen in *. cbn [length] in H.
  pose proof (cnt_nonneg t x). pose proof (cnt_le_len t x) as Hle. unfold zlen in Hle.
  destruct (rowof p <? x) eqn:E; [|lia]. constructor; [lia|]. apply IH. unfold zlen. lia.
Qed.

Lemma nth_index_of n (px : list recd) b : (b <= n)%nat -> nth b (index_of n px) 0 = cnt px (Z.of_nat b).
Proof.
  intros Hb. unfold index_of. apply nth_error_nth.
  erewrite map_nth_error; [|apply nth_error_zrange; lia]. reflexivity.
Qed.
Lemma index_of_length n (px : list recd) : length (index_of n px) = S n.
Proof. unfold index_of. now rewrite map_length, zrange_length. Qed.

Lemma slice_rows px a b : RowSorted px -> a <= b ->
  slice px (cnt px a) (cnt px b) = filter (inrows a b) px.
Proof.
  unfold RowSorted. intros HS Hab. induction px as [|p t IH]; [reflexivity|].
  cbn [map] in HS. inversion HS as [|? ? HSt HF]; subst. specialize (IH HSt).
  assert (HF' : Forall (fun q => rowof p <= rowof q) t) by (rewrite Forall_map in HF; exact HF).
  rewrite !cnt_cons. cbn [filter]. unfold inrows at 1, inrowsk. fold (rowof p).
  pose proof (cnt_nonneg t a). pose proof (cnt_nonneg t b).
  destruct (rowof p <? a) eqn:Ea.
  - assert (Eb : rowof p <? b = true) by lia. rewrite Eb.
    replace (a <=? rowof p) with false by lia. cbn [andb]. rewrite slice_S by lia. exact IH.
  - assert (Ha0 : cnt t a = 0).
    { apply cnt_zero. eapply Forall_impl; [|exact HF']. cbn. intros; lia. }
    rewrite Ha0 in *. replace (a <=? rowof p) with true by lia. cbn [andb Z.add].
    destruct (rowof p <? b) eqn:Eb.
    + rewrite slice_0_S by lia. f_equal. exact IH.
    + assert (Hb0 : cnt t b = 0).
      { apply cnt_zero. eapply Forall_impl; [|exact HF']. cbn. intros; lia. }
      rewrite Hb0 in *. rewrite <- IH. reflexivity.
Qed.

Lemma epoch_frames_eq (inputs : list (mcool V)) (f g : mcool V -> Z) :
  epoch_frames inputs (map f inputs) (map g inputs)
  = concat (map (fun c => slice (mc_px c) (f c) (g c)) inputs).
Proof.
  unfold epoch_frames. induction inputs as [|c t IH]; [reflexivity|].
  cbn [map combine concat fst snd]. f_equal. exact IH.
Qed.

Lemma frames_rows n (inputs : list (mcool V)) (a b : nat) :
  Forall (ValidIn n) inputs -> (a <= b <= n)%nat ->
  epoch_frames inputs (map (fun c => nth a (mc_off c) 0) inputs) (map (fun c => nth b (mc_off c) 0) inputs)
  = filter (inrows (Z.of_nat a) (Z.of_nat b)) (allpx inputs).
Proof.
  intros HV Hab. unfold allpx. rewrite epoch_frames_eq, <- concat_filter_map, map_map. f_equal.
  apply map_ext_in. intros c Hc. rewrite Forall_forall in HV. destruct (HV c Hc) as [Ho Hs Hr].
  rewrite Ho, !nth_index_of by lia. apply slice_rows; [exact Hs|lia].
Qed.

Lemma groupby_agg_nil agg : @groupby_agg V agg [] = []. Proof. reflexivity. Qed.

(** consecutive row ranges group independently: their keys are ordered *)
Lemma groupby_rows_app agg (l : list recd) a b c : a <= b <= c ->
  groupby_agg agg (filter (inrows a b) l) ++ groupby_agg agg (filter (inrows b c) l)
  = groupby_agg agg (filter (inrows a c) l).
Proof.
  intros H. unfold inrows. rewrite <- groupby_agg_app.
  - apply groupby_agg_rel.
    + intro k. rewrite map_app, in_app_iff, !keys_filter. unfold inrowsk.
      destruct (fst k <? b) eqn:Eb; intuition lia.
    + intros k _. f_equal. rewrite vals_app, !vals_filter. unfold inrowsk.
      destruct (fst k <? b) eqn:Eb.
      * replace (b <=? fst k) with false by lia. replace (fst k <? c) with true by lia. cbn [andb]. apply app_nil_r.
      * replace (b <=? fst k) with true by lia. replace (a <=? fst k) with true by lia. now rewrite andb_false_r.
  - intros k1 k2 H1 H2. rewrite keys_filter in H1, H2. unfold inrowsk in *. left. lia.
Qed.

Lemma merger_epochs_rows agg n (inputs : list (mcool V)) : Forall (ValidIn n) inputs ->
  forall part a, StronglySorted le (a :: part) -> Forall (fun h => (h <= n)%nat) (a :: part) ->
  concat (merger_epochs agg inputs (map (fun c => nth a (mc_off c) 0) inputs) part)
  = groupby_agg agg (filter (inrows (Z.of_nat a) (Z.of_nat (last part a))) (allpx inputs)).
Proof.
  intros HV. induction part as [|b rest IH]; intros a HS HB.
  - cbn [merger_epochs concat last]. rewrite filter_none; [reflexivity|].
    intros p _. unfold inrows, inrowsk. lia.
  - cbn [merger_epochs].
    inversion HS as [|? ? HS' HFa]; subst. inversion HB as [|? ? Ha HB']; subst.
    assert (Hab : (a <= b)%nat) by (inversion HFa; assumption).
    assert (Hbn : (b <= n)%nat) by (inversion HB'; assumption).
    pose proof (ssorted_le_last b rest HS') as Hbl.
    rewrite (frames_rows n inputs a b HV ltac:(lia)), last_cons, <- (groupby_rows_app agg _ _ (Z.of_nat b)) by lia.
    rewrite <- (IH b HS' HB').
    (* the merger skips an epoch without records; on the right it contributes the empty group-by *)
    destruct (filter _ _); [now rewrite groupby_agg_nil|reflexivity].
Qed.

Lemma merger_epochs_nonempty agg (inputs : list (mcool V)) part : forall starts,
  Forall (fun e => e <> []) (merger_epochs agg inputs starts part).
Proof.
  induction part as [|b rest IH]; intros st; cbn [merger_epochs]; [constructor|].
  destruct (epoch_frames inputs st _) as [|r fr]; [apply IH|]. constructor; [|apply IH].
  intro X. assert (H : In (fst r) (map fst (groupby_agg agg (r :: fr)))) by (apply groupby_agg_keys; now left).
  now rewrite X in H.
Qed.

Lemma valid_index_facts n (c : mcool V) : ValidIn n c ->
  length (mc_off c) = S n /\ MonoN (mc_off c) /\ nth 0 (mc_off c) 0 = 0.
Proof.
  intros [Ho Hs Hr]. rewrite Ho. split; [apply index_of_length|]. split.
  - intros i j Hij. rewrite index_of_length in Hij. rewrite !nth_index_of by lia. apply cnt_mono. lia.
  - rewrite nth_index_of by lia. apply cnt_zero. eapply Forall_impl; [|exact Hr]. cbn. intros; lia.
Qed.

Lemma valid_rows_below n (c : mcool V) r : ValidIn n c -> (r <= n)%nat ->
  nth r (mc_off c) 0 = nth n (mc_off c) 0 -> Forall (fun q => 0 <= rowof q < Z.of_nat r) (mc_px c).
Proof.
  intros [Ho Hs Hr] Hrn E. rewrite Ho, !nth_index_of in E by lia.
  rewrite (cnt_all (mc_px c) (Z.of_nat n)) in E by (eapply Forall_impl; [|exact Hr]; cbn; intros; lia).
  apply cnt_all_inv in E. rewrite Forall_forall in *. intros q Hq. specialize (E q Hq). specialize (Hr q Hq). lia.
Qed.

Lemma allpx_forall (P : recd -> Prop) (l : list (mcool V)) : Forall (fun t => Forall P (mc_px t)) l -> Forall P (allpx l).
Proof. intros H. unfold allpx. apply Forall_concat. now rewrite Forall_map. Qed.

(** For any value type and any aggregation function: the merger terminates without error, never
    yields an empty chunk, and its chunks concatenate to the group-by of all input records (the values of a
    pixel in input order): the partition of [breakpoints_partition] covers all rows that hold records *)
Theorem merger_exact agg n (inputs : list (mcool V)) buf :
  inputs <> [] -> (1 <= n)%nat -> Forall (ValidIn n) inputs -> 0 <= buf ->
  exists eps, cooler_merger agg inputs buf = Ok eps /\
              concat eps = groupby_agg agg (allpx inputs) /\ Forall (fun e => e <> []) eps.
Proof.
  intros Hne Hn HV Hbuf. unfold cooler_merger, merge_breakpoints_auto.
  set (idxs := map (@mc_off V) inputs).
  assert (HF : Forall (fun a => length a = S n /\ MonoN a /\ nth 0 a 0 = 0) idxs).
  { subst idxs. rewrite Forall_map. eapply Forall_impl; [|exact HV]. apply valid_index_facts. }
  assert (Hne' : idxs <> []) by (subst idxs; destruct inputs; [contradiction|discriminate]).
  assert (FL : Forall (fun a => length a = S n) idxs) by (eapply Forall_impl; [|exact HF]; cbn; tauto).
  destruct (combined_index_facts idxs (S n) FL Hne') as (CL & _). rewrite CL.
  destruct (breakpoints_partition idxs (S n) buf Hne' ltac:(lia) HF Hbuf) as (p & Ep & P0 & PS & PF & PE).
  rewrite Ep. cbn [bind]. eexists. split; [reflexivity|]. split; [|apply merger_epochs_nonempty].
  destruct p as [|p0 p']; [cbn in P0; lia|]. cbn [hd] in P0. subst p0. cbn [tl].
  rewrite last_cons in PE. pose proof (forall_last _ _ _ PF) as Hlast. cbn beta in Hlast.
  rewrite (map_ext_in _ (fun c => nth 0 (mc_off c) 0)), (merger_epochs_rows agg n inputs HV p' O).
  - f_equal. apply filter_all, Forall_forall, allpx_forall. rewrite Forall_forall in *. intros c Hc.
    eapply Forall_impl; [|apply (valid_rows_below n c (last p' O) (HV c Hc)); [lia|]].
    + cbn beta. intros q Hq. unfold inrows, inrowsk. fold (rowof q). lia.
    + rewrite (PE (mc_off c) (in_map _ _ _ Hc) (last p' O)) by lia. f_equal. lia.
  - now apply (sorted_weaken lt le _ Nat.lt_le_incl).
  - eapply Forall_impl; [|exact PF]. cbn. intros; lia.
  - intros c Hc. rewrite Forall_forall in HV. now destruct (valid_index_facts n c (HV c Hc)) as (_ & _ & ->).
Qed.
End Merger.

Definition total (l : list pixel) : Z := sumZ (map snd l).

Lemma total_allpx (inputs : list (mcool Z)) : total (allpx inputs) = sumZ (map (fun c => total (mc_px c)) inputs).
Proof.
  unfold allpx. induction inputs as [|c t IH]; [reflexivity|]. cbn [map concat].
  unfold total in *. now rewrite map_app, sumZ_app, IH, sumZ_cons.
Qed.

Definition merged_px {V} (agg : list V -> V) (inputs : list (mcool V)) (buf : Z) : res (list (key * V)) :=
  match cooler_merger agg inputs buf with Ok eps => Ok (concat eps) | Err e => Err e end.

Theorem merger_groupby {V} (agg : list V -> V) n (inputs : list (mcool V)) buf :
  inputs <> [] -> (1 <= n)%nat -> Forall (ValidIn n) inputs -> 0 <= buf ->
  merged_px agg inputs buf = Ok (groupby_agg agg (allpx inputs)).
Proof.
  intros Hne Hn HV Hb. destruct (merger_exact agg n inputs buf Hne Hn HV Hb) as (eps & E & Ec & _).
  unfold merged_px. now rewrite E, Ec.
Qed.

(** the count column: the group-by with the exact sum is the canonical aggregate of Model/Pixels.v *)
Theorem merger_canon n (inputs : list (mcool Z)) buf :
  inputs <> [] -> (1 <= n)%nat -> Forall (ValidIn n) inputs -> 0 <= buf ->
  exists out, merged_px sumZ inputs buf = Ok out /\
    Canon (allpx inputs) out /\ out = aggregate (allpx inputs) /\
    total out = sumZ (map (fun c => total (mc_px c)) inputs).
Proof.
  intros Hne Hn HV Hb. eexists. split; [now apply (merger_groupby sumZ n)|]. rewrite groupby_sum_aggregate.
  split; [apply aggregate_canon|]. split; [reflexivity|]. rewrite <- total_allpx. apply sum_aggregate.
Qed.

Corollary merge_order_independent_gen {V} (agg : list V -> V) n (inputs inputs' : list (mcool V)) buf buf' :
  (forall vs vs', Permutation vs vs' -> agg vs = agg vs') ->
  Permutation inputs inputs' ->
  inputs <> [] -> (1 <= n)%nat -> Forall (ValidIn n) inputs -> 0 <= buf -> 0 <= buf' ->
  merged_px agg inputs buf = merged_px agg inputs' buf'.
Proof.
  intros HA HP Hne Hn HV Hb Hb'.
  assert (Hne' : inputs' <> []) by (intros ->; apply Permutation_sym, Permutation_nil in HP; contradiction).
  assert (HV' : Forall (ValidIn n) inputs') by (eapply Permutation_Forall; eauto).
  rewrite !(merger_groupby agg n) by auto. f_equal.
  apply groupby_agg_perm; [exact HA|]. unfold allpx. rewrite <- !flat_map_concat_map. now apply Permutation_flat_map.
Qed.

Lemma ssorted_rowsorted {V} (px : list (key * V)) : StronglySorted klt (map fst px) -> RowSorted px.
Proof.
  intro H. apply (ssorted_map klt Z.le fst) in H; [|unfold klt; intros; lia]. now rewrite map_map in H.
Qed.

(** what a merge pass writes (strictly sorted, rows in range, with its index) is again a valid input *)
Lemma valid_merged {V} (agg : list V -> V) n (inputs : list (mcool V)) :
  Forall (ValidIn n) inputs -> ValidIn n (mk_cool n (groupby_agg agg (allpx inputs))).
Proof.
  intros HV. constructor; [reflexivity|apply ssorted_rowsorted, groupby_agg_sorted|]. cbn [mc_px mk_cool].
  apply (groupby_agg_forall (fun k => 0 <= fst k < Z.of_nat n)), allpx_forall.
  eapply Forall_impl; [|exact HV]. now intros c [].
Qed.

Lemma allpx_app {V} (a b : list (mcool V)) : allpx (a ++ b) = allpx a ++ allpx b.
Proof. unfold allpx. now rewrite map_app, concat_app. Qed.
Lemma allpx_concat {V} (Gs : list (list (mcool V))) : allpx (concat Gs) = concat (map allpx Gs).
Proof. induction Gs as [|G t IH]; [reflexivity|]. cbn [concat map]. now rewrite allpx_app, IH. Qed.

(** exact integer sum: composes without any side condition *)
Lemma sum_compose : forall Gs : list (list Z), sumZ (map sumZ Gs) = sumZ (concat Gs).
Proof. exact sumZ_blocks. Qed.
Lemma sum_single v : sumZ [v] = v. Proof. rewrite sumZ_cons. change (sumZ []) with 0. lia. Qed.
(** associativity for any aggregation that composes over non-empty groups and is the identity on one value:
    merge [merge xs; ys] = merge (xs ++ ys) *)
Theorem merge_assoc_gen {V} (agg : list V -> V) :
  (forall Gs : list (list V), Forall (fun G => G <> []) Gs -> agg (map agg Gs) = agg (concat Gs)) ->
  (forall v, agg [v] = v) ->
  forall n (xs ys : list (mcool V)) b1 b2 b3,
  xs <> [] -> (1 <= n)%nat -> Forall (ValidIn n) xs -> Forall (ValidIn n) ys ->
  0 <= b1 -> 0 <= b2 -> 0 <= b3 ->
  exists m, merged_px agg xs b1 = Ok m /\
    merged_px agg (mk_cool n m :: ys) b2 = merged_px agg (xs ++ ys) b3.
Proof.
  intros Hcomp Hsingle n xs ys b1 b2 b3 Hne Hn HX HY H1 H2 H3. exists (groupby_agg agg (allpx xs)).
  split; [now apply (merger_groupby agg n)|].
  rewrite !(merger_groupby agg n); auto.
  - f_equal. change (mk_cool n (groupby_agg agg (allpx xs)) :: ys) with ([mk_cool n (groupby_agg agg (allpx xs))] ++ ys).
    rewrite !allpx_app. unfold allpx at 1. cbn [map concat mc_px mk_cool]. rewrite app_nil_r. now apply groupby_app_agg.
  - destruct xs; [contradiction|discriminate].
  - apply Forall_app. split; assumption.
  - discriminate.
  - constructor; [now apply valid_merged|exact HY].
Qed.

(** associativity (sum): merging the stored result of a merge with further inputs equals merging
    everything at once; in particular merge [merge [a;b]; c] = merge [a;b;c] *)
Theorem merge_assoc n (xs ys : list (mcool Z)) b1 b2 b3 :
  xs <> [] -> (1 <= n)%nat -> Forall (ValidIn n) xs -> Forall (ValidIn n) ys ->
  0 <= b1 -> 0 <= b2 -> 0 <= b3 ->
  exists m, merged_px sumZ xs b1 = Ok m /\
    merged_px sumZ (mk_cool n m :: ys) b2 = merged_px sumZ (xs ++ ys) b3.
Proof. apply (merge_assoc_gen sumZ sumZ_composes sum_single). Qed.

Section Sorting.
Context {V : Type}.
Notation recd := (key * V)%type.

(** weakly sorted by key: no later record has a smaller key *)
Definition kge (a b : recd) : Prop := kltb (fst b) (fst a) = false.
Definition WSorted (l : list recd) : Prop := StronglySorted kge l.

Lemma sort_ins_perm (p : recd) l : Permutation (p :: l) (sort_ins p l).
Proof.
  induction l as [|q t IH]; cbn [sort_ins]; [reflexivity|].
  destruct (kltb (fst p) (fst q)); [reflexivity|].
  eapply Permutation_trans; [apply perm_swap|]. now apply perm_skip.
Qed.
Lemma fold_sort_ins_perm (l : list recd) : forall acc,
  Permutation (l ++ acc) (fold_left (fun acc p => sort_ins p acc) l acc).
Proof.
  induction l as [|p t IH]; intros acc; cbn [fold_left app]; [reflexivity|].
  eapply Permutation_trans; [|apply IH]. eapply Permutation_trans; [apply Permutation_middle|].
  apply Permutation_app_head. apply sort_ins_perm.
Qed.
Lemma sort_values_perm (l : list recd) : Permutation l (sort_values l).
Proof. unfold sort_values. rewrite <- (app_nil_r l) at 1. apply fold_sort_ins_perm. Qed.

Lemma sort_ins_ws (p : recd) l : WSorted l -> WSorted (sort_ins p l).
Proof.
  unfold WSorted. induction l as [|q t IH]; intro H; cbn [sort_ins]; [repeat constructor|].
  inversion H as [|? ? Ht HF]; subst. destruct (kltb (fst p) (fst q)) eqn:E.
  - constructor; [exact H|]. constructor; [unfold kge, kltb in *; lia|].
    eapply Forall_impl; [|exact HF]. unfold kge, kltb in *. intros a Ha. lia.
  - constructor; [apply IH; exact Ht|].
    eapply Permutation_Forall; [apply sort_ins_perm|]. constructor; [exact E|exact HF].
Qed.
Lemma sort_values_ws (l : list recd) : WSorted (sort_values l).
Proof.
  unfold sort_values. assert (H : forall acc, WSorted acc -> WSorted (fold_left (fun acc p => sort_ins p acc) l acc)).
  { induction l as [|p t IH]; intros acc Ha; cbn [fold_left]; [exact Ha|]. apply IH. now apply sort_ins_ws. }
  apply H. constructor.
Qed.
Lemma ws_rowsorted (l : list recd) : WSorted l -> RowSorted l.
Proof.
  intro H. apply (ssorted_map kge); [exact H|]. unfold kge, kltb, rowof. intros; lia.
Qed.
Lemma ssorted_ws (l : list recd) : StronglySorted klt (map fst l) -> WSorted l.
Proof.
  intro H. apply ssorted_map_inv in H. revert H. apply sorted_weaken.
  intros a b. unfold kge, kltb, klt. lia.
Qed.

Lemma sort_ins_last (p : recd) acc : Forall (fun q => kge q p) acc -> sort_ins p acc = acc ++ [p].
Proof.
  induction acc as [|q t IH]; intro H; [reflexivity|]. inversion H as [|? ? Hq Ht]; subst.
  cbn [sort_ins app]. unfold kge in Hq. rewrite Hq. now rewrite IH.
Qed.
Lemma ws_app_inv (a : list recd) p t : WSorted (a ++ p :: t) -> Forall (fun q => kge q p) a.
Proof.
  unfold WSorted. induction a as [|x a IH]; cbn [app]; intro H; [constructor|].
  inversion H as [|? ? Ha HF]; subst. constructor; [|apply IH; exact Ha].
  rewrite Forall_forall in HF. apply HF. apply in_or_app. right. left. reflexivity.
Qed.
Lemma sort_values_id (l : list recd) : WSorted l -> sort_values l = l.
Proof.
  unfold sort_values. assert (H : forall acc, WSorted (acc ++ l) -> fold_left (fun acc p => sort_ins p acc) l acc = acc ++ l).
  { induction l as [|p t IH]; intros acc Ha; cbn [fold_left]; [now rewrite app_nil_r|].
    rewrite (sort_ins_last p acc (ws_app_inv acc p t Ha)). rewrite IH; rewrite <- app_assoc; [reflexivity|exact Ha]. }
  apply (H []).
Qed.

(** what a chunk that passes validate_pixels went through *)
Lemma validate_ok n b t d s (ch ch' : list recd) :
  validate_pixels n b t d s ch = Ok ch' ->
  b && existsb (fun p => (fst (fst p) <? 0) || (snd (fst p) <? 0)) ch = false /\
  b && existsb (fun p => (n <=? fst (fst p)) || (n <=? snd (fst p))) ch = false /\
  t && existsb (fun p => snd (fst p) <? fst (fst p)) ch = false /\
  d && has_dup ch = false /\ ch' = if s then sort_values ch else ch.
Proof.
  unfold validate_pixels.
  repeat match goal with |- context [if ?c then Err _ else _] => destruct c end; intro H; inversion H; auto.
Qed.
Lemma check_chunk_ok n o vcheck (ch ch' : list recd) :
  check_chunk n o vcheck ch = Ok ch' -> ch' = if o_sort o then sort_values ch else ch.
Proof.
  unfold check_chunk. destruct (validate_pixels n (o_bounds o) (o_triu o) (o_dup o) (o_sort o) ch) as [c|e] eqn:E; cbn [bind]; [|discriminate].
  apply validate_ok in E. destruct E as (_ & _ & _ & _ & ->). destruct (forallb _ _); intro H; now inversion H.
Qed.
Lemma check_chunk_sorted n o vcheck (ch ch' : list recd) :
  StronglySorted klt (map fst ch) -> check_chunk n o vcheck ch = Ok ch' -> ch' = ch.
Proof.
  intros HS H. apply check_chunk_ok in H. destruct (o_sort o); [|exact H].
  rewrite H. apply sort_values_id. now apply ssorted_ws.
Qed.
End Sorting.

Lemma mapM_ok {A B} (f : A -> res B) l r : mapM f l = Ok r -> Forall2 (fun x y => f x = Ok y) l r.
Proof.
  revert r. induction l as [|x t IH]; intros r H; cbn [mapM] in H.
  - inversion H. constructor.
  - destruct (f x) as [y|e] eqn:Ex; cbn [bind] in H; [|discriminate].
    destruct (mapM f t) as [ys|e] eqn:Et; cbn [bind] in H; [|discriminate].
    inversion H; subst. constructor; [exact Ex|]. now apply IH.
Qed.
Lemma mapM_total {A B} (P : B -> Prop) (f : A -> res B) l : Forall (fun x => exists y, f x = Ok y /\ P y) l ->
  exists r, mapM f l = Ok r /\ Forall P r /\ length r = length l.
Proof.
  induction 1 as [|x t (y & Ey & Py) _ (r & Er & Pr & Lr)]; cbn [mapM]; [now exists []|].
  rewrite Ey, Er. cbn [bind]. exists (y :: r). repeat split; [now constructor|cbn [length]; now rewrite Lr].
Qed.
Lemma mapM_ok_map {A B} (f : A -> res B) (g : A -> B) l r :
  (forall x y, In x l -> f x = Ok y -> y = g x) -> mapM f l = Ok r -> r = map g l.
Proof.
  intros H E. apply mapM_ok in E. induction E as [|x y l r Ex _ IH]; [reflexivity|]. cbn [map].
  rewrite (H x y) by (auto; now left). f_equal. apply IH. intros; apply H; [now right|assumption].
Qed.
Lemma mapM_map {A B} (f : A -> res B) (g : A -> B) l : (forall x, In x l -> f x = Ok (g x)) -> mapM f l = Ok (map g l).
Proof.
  induction l as [|x l IH]; intro H; [reflexivity|]. cbn [mapM map]. rewrite (H x), IH; [reflexivity| |now left].
  intros; apply H; now right.
Qed.

Section Unordered.
Context {V : Type}.
Notation recd := (key * V)%type.
Variables (n : nat) (o : copts) (vcheck : V -> bool) (agg : list V -> V).

Lemma create_g_ok (chunks : list (list recd)) m : create_g n o vcheck chunks = Ok m ->
  exists cs, Forall2 (fun ch ch' => check_chunk (Z.of_nat n) o vcheck ch = Ok ch') chunks cs /\ m = mk_cool n (concat cs).
Proof.
  unfold create_g. destruct (mapM _ chunks) as [cs|e] eqn:E; cbn [bind]; [|discriminate].
  intro H; inversion H; subst. exists cs. split; [now apply mapM_ok|reflexivity].
Qed.
Lemma create_g_sorted (chunks : list (list recd)) m :
  Forall (fun ch => StronglySorted klt (map fst ch)) chunks ->
  create_g n o vcheck chunks = Ok m -> m = mk_cool n (concat chunks).
Proof.
  intros HS H. apply create_g_ok in H. destruct H as (cs & F & ->). f_equal. f_equal.
  induction F as [|ch ch' t t' Hc _ IH]; [reflexivity|]. inversion HS; subst. f_equal; [|now apply IH].
  eapply check_chunk_sorted; eauto.
Qed.

Lemma cooler_merger_sorted (inputs : list (mcool V)) buf eps :
  cooler_merger agg inputs buf = Ok eps -> Forall (fun e => StronglySorted klt (map fst e)) eps.
Proof.
  unfold cooler_merger. destruct (merge_breakpoints_auto _ _) as [p|]; cbn [bind]; [|discriminate]. intros [= <-].
  generalize (map (fun _ : mcool V => 0) inputs). induction (tl p) as [|b rest IH]; intros starts; cbn [merger_epochs]; [constructor|].
  destruct (epoch_frames inputs starts _) as [|r fr]; [apply IH|]. constructor; [apply groupby_agg_sorted|apply IH].
Qed.
Lemma merge_g_nonempty (inputs : list (mcool V)) buf : inputs <> [] ->
  merge_g n o vcheck agg inputs buf = bind (cooler_merger agg inputs buf) (create_g n o vcheck).
Proof. destruct inputs; [contradiction|reflexivity]. Qed.

Lemma merge_g_exact (inputs : list (mcool V)) buf m :
  (1 <= n)%nat -> 0 <= buf -> Forall (ValidIn n) inputs ->
  merge_g n o vcheck agg inputs buf = Ok m ->
  inputs <> [] /\ m = mk_cool n (groupby_agg agg (allpx inputs)).
Proof.
  intros Hn Hb HV H. assert (Hne : inputs <> []) by (intros ->; discriminate). split; [exact Hne|].
  rewrite (merge_g_nonempty _ _ Hne) in H.
  destruct (merger_exact agg n inputs buf Hne Hn HV Hb) as (eps & E & Ec & _). rewrite E in H. cbn [bind] in H.
  apply create_g_sorted in H; [now rewrite H, Ec|]. exact (cooler_merger_sorted _ _ _ E).
Qed.

(** admissible edge list of the first merge pass over k chunks: 0 = e0 < e1 < ... < em = k; consecutive
    edges are the slices temps[lo:hi] that the first pass merges, so the last edge has to be the number of chunks *)
Definition Admissible (k : nat) (e : list nat) : Prop :=
  hd 1%nat e = O /\ last e O = k /\ StronglySorted lt e.

Lemma nslice_app {A} (l : list A) a b c : (a <= b <= c)%nat -> nslice l a b ++ nslice l b c = nslice l a c.
Proof.
  intros H. unfold nslice. replace (c - a)%nat with ((b - a) + (c - b))%nat by lia.
  rewrite firstn_add. f_equal. f_equal. rewrite <- skipn_add. f_equal. lia.
Qed.
Lemma pairs_tile_from {A} (l : list A) rest : forall a, StronglySorted lt (a :: rest) ->
  concat (map (fun lh => nslice l (fst lh) (snd lh)) (pairs (a :: rest))) = nslice l a (last rest a).
Proof.
  induction rest as [|b rest IH]; intros a HS.
  - cbn. unfold nslice. now rewrite Nat.sub_diag.
  - change (pairs (a :: b :: rest)) with ((a, b) :: pairs (b :: rest)). cbn [map concat fst snd].
    inversion HS as [|? ? HS' HF]; subst. rewrite (IH b HS').
    assert (a < b)%nat by (inversion HF; assumption).
    assert (b <= last rest b)%nat by now apply ssorted_le_last, (sorted_weaken lt le _ Nat.lt_le_incl).
    rewrite nslice_app by lia. f_equal. symmetry. apply last_cons.
Qed.
Lemma pairs_tile {A} (l : list A) e : Admissible (length l) e ->
  concat (map (fun lh => nslice l (fst lh) (snd lh)) (pairs e)) = l.
Proof.
  intros (H0 & Hl & HS). destruct e as [|a rest]; [cbn in H0; lia|]. cbn [hd] in H0. subst a.
  rewrite (pairs_tile_from l rest O HS).
  assert (last rest O = length l) by (rewrite <- Hl; symmetry; apply last_cons).
  unfold nslice. rewrite H, Nat.sub_0_r. cbn [skipn]. apply firstn_all.
Qed.
Lemma pairs_bounds rest : forall a k, StronglySorted lt (a :: rest) -> (last rest a <= k)%nat ->
  Forall (fun lh => (fst lh < snd lh <= k)%nat) (pairs (a :: rest)).
Proof.
  induction rest as [|b rest IH]; intros a k HS Hk; [constructor|].
  change (pairs (a :: b :: rest)) with ((a, b) :: pairs (b :: rest)).
  inversion HS as [|? ? HS' HF]; subst. assert (a < b)%nat by (inversion HF; assumption).
  assert (Hl : last (b :: rest) a = last rest b) by apply last_cons. rewrite Hl in Hk.
  assert (b <= last rest b)%nat by now apply ssorted_le_last, (sorted_weaken lt le _ Nat.lt_le_incl).
  constructor; [cbn [fst snd]; lia|]. apply IH; assumption.
Qed.

Lemma forall_nslice {A} (P : A -> Prop) l a b : Forall P l -> Forall P (nslice l a b).
Proof.
  intros H. unfold nslice. rewrite <- (firstn_skipn a l) in H. apply Forall_app in H as [_ H].
  rewrite <- (firstn_skipn (b - a) (skipn a l)) in H. now apply Forall_app in H.
Qed.

Lemma create_g_single (ch : list recd) t :
  (o_sort o = true \/ RowSorted ch) -> Forall (fun p => 0 <= rowof p < Z.of_nat n) ch ->
  create_g n o vcheck [ch] = Ok t -> ValidIn n t /\ Permutation ch (mc_px t).
Proof.
  intros Hs Hr Hc. apply create_g_ok in Hc. destruct Hc as (cs & F & ->).
  inversion F as [|? ch' ? ? Hch F']; subst. inversion F'; subst. cbn [concat mk_cool mc_px]. rewrite app_nil_r.
  apply check_chunk_ok in Hch.
  assert (HP : Permutation ch ch') by (rewrite Hch; destruct (o_sort o); [apply sort_values_perm|reflexivity]).
  split; [|exact HP]. constructor; cbn [mc_off mc_px]; [reflexivity| |eapply Permutation_Forall; eauto].
  destruct (o_sort o) eqn:Es; rewrite Hch; [apply ws_rowsorted, sort_values_ws|]. destruct Hs; [discriminate|assumption].
Qed.
Lemma temps_valid (chunks : list (list recd)) temps :
  Forall (fun ch => (o_sort o = true \/ RowSorted ch) /\ Forall (fun p => 0 <= rowof p < Z.of_nat n) ch) chunks ->
  mapM (fun ch => create_g n o vcheck [ch]) chunks = Ok temps ->
  Forall (ValidIn n) temps /\ Permutation (concat chunks) (allpx temps) /\ length temps = length chunks.
Proof.
  intros HC E. apply mapM_ok in E. induction E as [|ch t chunks temps Hc _ IH]; [repeat split; constructor|].
  inversion HC as [|? ? (Hs & Hr) HC']; subst. destruct (create_g_single ch t Hs Hr Hc) as (Hv & Hp).
  destruct (IH HC') as (A & B & C). split; [now constructor|]. split; [|cbn [length]; now rewrite C].
  unfold allpx. cbn [map concat]. now apply Permutation_app.
Qed.
End Unordered.

Section UnorderedExact.
Context {V : Type}.
Notation recd := (key * V)%type.
Variables (n : nat) (o : copts) (vcheck : V -> bool) (agg : list V -> V).
(** properties of the aggregation function that chunk-order independence and the two-level merge need;
    both hold for the integer sum (below) *)
Hypothesis agg_perm : forall l l' : list recd, Permutation l l' -> groupby_agg agg l = groupby_agg agg l'.
Hypothesis agg_two_level : forall Gs : list (list recd),
  groupby_agg agg (concat (map (groupby_agg agg) Gs)) = groupby_agg agg (concat Gs).

(** Partial correctness, for any options and any dtype check: a successful unordered ingestion
    stores the group-by of all records of all chunks, with its index, for a single pass as well as for every
    admissible edge list of the first merge pass *)
Theorem unordered_exact (chunks : list (list recd)) buf edges m :
  (1 <= n)%nat -> 0 <= buf ->
  Forall (fun ch => (o_sort o = true \/ RowSorted ch) /\ Forall (fun p => 0 <= rowof p < Z.of_nat n) ch) chunks ->
  match edges with Some e => Admissible (length chunks) e | None => True end ->
  unordered_g n o vcheck agg chunks buf edges = Ok m ->
  m = mk_cool n (groupby_agg agg (concat chunks)).
Proof.
  intros Hn Hb HC HE H. unfold unordered_g in H.
  destruct (mapM _ chunks) as [temps|e] eqn:E1; cbn [bind] in H; [|discriminate].
  destruct (temps_valid n o vcheck chunks temps HC E1) as (TV & TP & TL).
  (* whatever the final merger receives is valid and groups to the same table as the temporary coolers *)
  assert (X : exists finals, merge_g n o vcheck agg finals buf = Ok m /\ Forall (ValidIn n) finals /\
                             groupby_agg agg (allpx finals) = groupby_agg agg (allpx temps)).
  { destruct edges as [e|]; [|now exists temps].
    destruct (mapM _ (pairs e)) as [finals|e'] eqn:E2; cbn [bind] in H; [|discriminate]. exists finals. split; [exact H|].
    apply (mapM_ok_map _ (fun lh => mk_cool n (groupby_agg agg (allpx (nslice temps (fst lh) (snd lh)))))) in E2.
    2:{ intros lh f _ Hm. apply merge_g_exact in Hm; [tauto|assumption|assumption|]. now apply forall_nslice. }
    subst finals. split; [rewrite Forall_map; apply Forall_forall; intros lh _; apply valid_merged; now apply forall_nslice|].
    unfold allpx at 1. rewrite map_map. cbn [mc_px mk_cool].
    rewrite <- (map_map (fun lh => allpx (nslice temps (fst lh) (snd lh))) (groupby_agg agg)), agg_two_level.
    rewrite <- (map_map (fun lh => nslice temps (fst lh) (snd lh)) allpx), <- allpx_concat, pairs_tile by (rewrite TL; exact HE).
    reflexivity. }
  destruct X as (finals & Hm & FV & EF). apply merge_g_exact in Hm; auto. destruct Hm as (_ & ->).
  rewrite EF. f_equal. symmetry. now apply agg_perm.
Qed.
End UnorderedExact.

(** independence for any permutation-invariant aggregation obeying the composition law *)
Theorem unordered_independent_gen {V} (agg : list V -> V) :
  (forall vs vs', Permutation vs vs' -> agg vs = agg vs') ->
  (forall Gs : list (list V), Forall (fun G => G <> []) Gs -> agg (map agg Gs) = agg (concat Gs)) ->
  forall n o o' vc vc' (chunks chunks' : list (list (key * V))) buf buf' edges edges' m m',
  (1 <= n)%nat -> 0 <= buf -> 0 <= buf' ->
  Permutation (concat chunks) (concat chunks') ->
  Forall (fun ch => (o_sort o = true \/ RowSorted ch) /\ Forall (fun p => 0 <= rowof p < Z.of_nat n) ch) chunks ->
  Forall (fun ch => (o_sort o' = true \/ RowSorted ch) /\ Forall (fun p => 0 <= rowof p < Z.of_nat n) ch) chunks' ->
  match edges with Some e => Admissible (length chunks) e | None => True end ->
  match edges' with Some e => Admissible (length chunks') e | None => True end ->
  unordered_g n o vc agg chunks buf edges = Ok m ->
  unordered_g n o' vc' agg chunks' buf' edges' = Ok m' -> m = m'.
Proof.
  intros Hperm Hcomp n o o' vc vc' chunks chunks' buf buf' edges edges' m m' Hn Hb Hb' HP HC HC' HE HE' H H'.
  pose proof (groupby_agg_perm agg Hperm) as P. pose proof (compose_two_level agg Hcomp) as T.
  rewrite (unordered_exact n o vc agg P T chunks buf edges m Hn Hb HC HE H).
  rewrite (unordered_exact n o' vc' agg P T chunks' buf' edges' m' Hn Hb' HC' HE' H').
  f_equal. now apply P.
Qed.

Lemma sum_perm (l l' : list pixel) : Permutation l l' -> groupby_agg sumZ l = groupby_agg sumZ l'.
Proof. exact (groupby_agg_perm sumZ sumZ_perm l l'). Qed.
Lemma sum_two_level (Gs : list (list pixel)) :
  groupby_agg sumZ (concat (map (groupby_agg sumZ) Gs)) = groupby_agg sumZ (concat Gs).
Proof. apply compose_two_level, sumZ_composes. Qed.

(** for counts: what is stored is the in-memory aggregate of Model/Pixels.v *)
Theorem unordered_eq_aggregate n o vcheck (chunks : list (list pixel)) buf edges m :
  (1 <= n)%nat -> 0 <= buf ->
  Forall (fun ch => (o_sort o = true \/ RowSorted ch) /\ Forall (fun p => 0 <= rowof p < Z.of_nat n) ch) chunks ->
  match edges with Some e => Admissible (length chunks) e | None => True end ->
  unordered_g n o vcheck sumZ chunks buf edges = Ok m ->
  mc_px m = aggregate (concat chunks) /\ mc_off m = index_of n (mc_px m) /\
  total (mc_px m) = total (concat chunks).
Proof.
  intros Hn Hb HC HE H.
  rewrite (unordered_exact n o vcheck sumZ sum_perm sum_two_level chunks buf edges m Hn Hb HC HE H).
  cbn [mc_px mc_off mk_cool]. rewrite groupby_sum_aggregate. split; [reflexivity|]. split; [reflexivity|apply sum_aggregate].
Qed.

(** independence of the partition into chunks, of the chunk order, of mergebuf and of one vs two passes:
    two successful ingestions of the same multiset of records give the same file content *)
Corollary unordered_independent n o o' vc vc' (chunks chunks' : list (list pixel)) buf buf' edges edges' m m' :
  (1 <= n)%nat -> 0 <= buf -> 0 <= buf' ->
  Permutation (concat chunks) (concat chunks') ->
  Forall (fun ch => (o_sort o = true \/ RowSorted ch) /\ Forall (fun p => 0 <= rowof p < Z.of_nat n) ch) chunks ->
  Forall (fun ch => (o_sort o' = true \/ RowSorted ch) /\ Forall (fun p => 0 <= rowof p < Z.of_nat n) ch) chunks' ->
  match edges with Some e => Admissible (length chunks) e | None => True end ->
  match edges' with Some e => Admissible (length chunks') e | None => True end ->
  unordered_g n o vc sumZ chunks buf edges = Ok m ->
  unordered_g n o' vc' sumZ chunks' buf' edges' = Ok m' -> m = m'.
Proof.
  apply (unordered_independent_gen sumZ sumZ_perm sumZ_composes).
Qed.

Lemma ssorted_map_seq (f : nat -> nat) len : forall a,
  (forall i j, (a <= i < j)%nat -> (j < a + len)%nat -> (f i < f j)%nat) ->
  StronglySorted lt (map f (seq a len)).
Proof.
  induction len as [|len IH]; intros a H; cbn [seq map]; constructor.
  - apply IH. intros i j Hij Hj. apply H; lia.
  - rewrite Forall_map. apply Forall_forall. intros j Hj. apply in_seq in Hj. apply H; lia.
Qed.
Lemma div_step i n d : (1 <= d <= n)%nat -> (i * n / d < (i + 1) * n / d)%nat.
Proof.
  intros H. replace ((i + 1) * n)%nat with (i * n + n)%nat by lia.
  apply Nat.lt_le_trans with ((i * n + 1 * d) / d)%nat.
  - rewrite Nat.div_add by lia. lia.
  - apply Nat.div_le_mono; lia.
Qed.
Lemma div_mono_strict n d : (1 <= d <= n)%nat -> forall i j, (i < j)%nat -> (i * n / d < j * n / d)%nat.
Proof.
  intros H i j Hij. induction Hij as [|j Hij IH].
  - replace (S i) with (i + 1)%nat by lia. now apply div_step.
  - eapply Nat.lt_trans; [exact IH|]. replace (S j) with (j + 1)%nat by lia. now apply div_step.
Qed.

(** The edge list of the first merge pass (k = max(isqrt n, 2) points i*n/(k-1), exact floor)
    is admissible for every n >= 1 chunks; in particular for n = 2, 3 (defect D9 before the repair) *)
Theorem two_pass_edges_ok n : (1 <= n)%nat -> Admissible n (linspace_int n (Nat.max (Nat.sqrt n) 2)).
Proof.
  intros Hn. remember (Nat.max (Nat.sqrt n) 2) as k eqn:Ek.
  assert (Hk : (2 <= k)%nat) by (subst k; lia).
  assert (Hkn : (k - 1 <= n)%nat) by (subst k; pose proof (Nat.sqrt_le_lin n); lia).
  clear Ek. destruct k as [|[|k']]; try lia.
  unfold linspace_int, Admissible. replace (S (S k') - 1)%nat with (S k') in * by lia.
  split; [|split].
  - cbn [seq map hd]. reflexivity.
  - rewrite seq_S, map_app. cbn [map]. rewrite last_last. cbn [plus]. rewrite Nat.mul_comm. apply Nat.div_mul. lia.
  - apply ssorted_map_seq. intros i j Hij _. apply div_mono_strict; lia.
Qed.
Corollary unordered_edges_ok n mm : (1 <= n)%nat ->
  match unordered_edges n mm with Some e => Admissible n e | None => True end.
Proof. intros Hn. unfold unordered_edges. destruct (_ && _); [now apply two_pass_edges_ok|exact I]. Qed.

Lemma list_eqb_sound {A} (eqb : A -> A -> bool) : (forall x y, eqb x y = true -> x = y) ->
  forall a b, list_eqb eqb a b = true -> a = b.
Proof.
  intros He. induction a as [|x a IH]; intros [|y b] H; cbn in H; try discriminate; [reflexivity|].
  apply andb_true_iff in H. destruct H as (H1 & H2). f_equal; [now apply He|now apply IH].
Qed.
Lemma bin_eqb_sound x y : bin_eqb x y = true -> x = y.
Proof. destruct x as [[a b] c], y as [[a' b'] c']. unfold bin_eqb, bchrom, bstart, bend. cbn [fst snd]. intro H. repeat f_equal; lia. Qed.
Lemma pair_eqb_sound (x y : Z * Z) : pair_eqb x y = true -> x = y.
Proof. destruct x, y. unfold pair_eqb. cbn [fst snd]. intro H. f_equal; lia. Qed.
Lemma opt_eqb_sound a b : opt_eqb a b = true -> a = b.
Proof. destruct a, b; cbn; intro H; try discriminate; [f_equal; lia|reflexivity]. Qed.
(** what CoolerMerger.__init__ accepts really has the same axes: same chromosome names and the same bin
    table.  For the fixed-bin-size branch (which compares only bin size, names and chromosome lengths) this
    uses C20: a valid table that reports bin size b is determined by its chromosome lengths. *)
Theorem compatible_same_axes c0 c blocks0 blocks :
  c_bins c0 = concat blocks0 -> c_bins c = concat blocks -> ValidBlocks blocks0 -> ValidBlocks blocks ->
  compatible c0 c = true -> c_bins c = c_bins c0 /\ c_names c = c_names c0.
Proof.
  intros E0 E V0 V1 H. unfold compatible in H. destruct (get_binsize (c_bins c0)) as [b|] eqn:Eb.
  - apply andb_true_iff in H. destruct H as (H & H3). apply andb_true_iff in H. destruct H as (H1 & H2).
    apply opt_eqb_sound in H1. apply (list_eqb_sound Z.eqb) in H2; [|intros x y Hxy; lia].
    apply (list_eqb_sound pair_eqb pair_eqb_sound) in H3. split; [|exact H2].
    rewrite E0, E in *. rewrite !chromsizes_spec in H3 by assumption.
    assert (HL : length blocks = length blocks0).
    { apply (f_equal (@length _)) in H3. rewrite !combine_length, !zrange_length, !map_length in H3. lia. }
    apply (f_equal (map snd)) in H3. rewrite !map_snd_combine in H3 by (now rewrite zrange_length, map_length).
    f_equal. apply (fixed_table_determined blocks blocks0 b); auto.
  - apply andb_true_iff in H. destruct H as (H1 & H2).
    apply (list_eqb_sound Z.eqb) in H1; [|intros x y Hxy; lia].
    apply (list_eqb_sound bin_eqb bin_eqb_sound) in H2. split; assumption.
Qed.

(** the three terms that merge_coolers (Model/Merge.v) spells out in place: the requested columns (default: count),
    the aggregation of each (default: sum), and a cooler as the merger sees it *)
Definition mc_columns (columns : option (list Z)) : list Z := match columns with Some l => l | None => [0] end.
Definition mc_ops (columns : option (list Z)) (aggs : list (Z * aggop)) : list aggop :=
  map (fun col => match lookup aggs col with Some op => op | None => ASum end) (mc_columns columns).
Definition as_mcool (c : cooler) : mcool (list Z) := {| mc_off := c_off c; mc_px := c_px c |}.

(** Inversion of the definition, nothing more.  The conjuncts: the first input; the column positions; the output
    widths; the merge pass over the projected inputs; the four fields of the result computed from it; the
    storage-mode and the compatibility test; the three fields copied from the first input. *)
Theorem merge_coolers_unfold inputs buf columns dtypes aggs c :
  merge_coolers inputs buf columns dtypes aggs = Ok c ->
  exists c0 rest poss out_bits m,
    inputs = c0 :: rest /\
    all_some (map (fun ci => all_some (map (col_pos (c_cols ci)) (mc_columns columns))) inputs) = Some poss /\
    length out_bits = length (mc_columns columns) /\
    merge_g (c_nbins c0) {| o_bounds := true; o_triu := c_symm c0; o_dup := true; o_sort := false |}
            (fits_row out_bits) (agg_row (mc_ops columns aggs))
            (map (fun cp => project (fst cp) (snd cp)) (combine inputs poss)) buf = Ok m /\
    c_px c = mc_px m /\ c_off c = mc_off m /\ c_cols c = combine (mc_columns columns) out_bits /\
    c_sum c = sum_count (mc_columns columns) (mc_px m) /\
    forallb c_symm inputs || forallb (fun ci => negb (c_symm ci)) inputs = true /\
    forallb (compatible c0) inputs = true /\
    c_bins c = c_bins c0 /\ c_names c = c_names c0 /\ c_symm c = c_symm c0.
Proof.
  unfold merge_coolers. destruct inputs as [|c0 rest]; [discriminate|]. set (inputs := c0 :: rest).
  destruct (negb _) eqn:Es; [discriminate|]. apply negb_false_iff in Es. fold (mc_columns columns).
  destruct (all_some (map (fun c1 => all_some (map (col_pos (c_cols c1)) _)) inputs)) as [poss|] eqn:Ep; [|discriminate].
  destruct (all_some (map (fun c1 => all_some (map (col_bits (c_cols c1)) _)) inputs)) as [bitss|]; [|discriminate].
  destruct (negb (forallb (compatible c0) inputs)) eqn:Ec; [discriminate|]. apply negb_false_iff in Ec.
  match goal with |- context [merge_g _ _ (fits_row ?ob) _ _ _] => set (out_bits := ob) end.
  fold (mc_ops columns aggs).
  destruct (merge_g _ _ _ _ _ _) as [m|e] eqn:Em; cbn [bind]; [|discriminate].
  intro H. inversion H; subst c. cbn [c_px c_off c_cols c_sum c_bins c_names c_symm].
  exists c0, rest, poss, out_bits, m. repeat split; try reflexivity; try assumption.
  subst out_bits. now rewrite map_length, combine_length, seq_length, Nat.min_id.
Qed.

Lemma forallb_same_symm (inputs : list cooler) c0 : In c0 inputs ->
  forallb c_symm inputs || forallb (fun c => negb (c_symm c)) inputs = true ->
  Forall (fun c => c_symm c = c_symm c0) inputs.
Proof.
  intros Hin H. apply orb_true_iff in H. rewrite !forallb_forall in H. apply Forall_forall. intros c Hc.
  destruct H as [H|H]; pose proof (H c Hc) as A; pose proof (H c0 Hin) as B.
  - congruence.
  - destruct (c_symm c), (c_symm c0); cbn in *; congruence.
Qed.

(** Whenever merge_coolers produces an output, every input has the storage mode of the first
    and passed the compatibility test against the first; the output carries the first input's axes *)
Theorem refuse_incompatible inputs buf columns dtypes aggs c :
  merge_coolers inputs buf columns dtypes aggs = Ok c ->
  exists c0 rest, inputs = c0 :: rest /\
    Forall (fun ci => c_symm ci = c_symm c0 /\ compatible c0 ci = true) inputs /\
    c_bins c = c_bins c0 /\ c_names c = c_names c0 /\ c_symm c = c_symm c0.
Proof.
  intro H. apply merge_coolers_unfold in H.
  destruct H as (c0 & rest & _ & _ & _ & -> & _ & _ & _ & _ & _ & _ & _ & Es & Ec & Eb & En & Esy).
  exists c0, rest. split; [reflexivity|]. split; [|auto].
  pose proof (forallb_same_symm (c0 :: rest) c0 (or_introl eq_refl) Es) as HS.
  rewrite forallb_forall in Ec. rewrite Forall_forall in *. intros ci Hci. split; [apply HS|apply Ec]; exact Hci.
Qed.

Corollary merged_inputs_share_axes inputs buf columns dtypes aggs c :
  merge_coolers inputs buf columns dtypes aggs = Ok c ->
  Forall (fun ci => exists blocks, c_bins ci = concat blocks /\ ValidBlocks blocks) inputs ->
  Forall (fun ci => c_bins ci = c_bins c /\ c_names ci = c_names c /\ c_symm ci = c_symm c) inputs.
Proof.
  intros H HV. destruct (refuse_incompatible _ _ _ _ _ _ H) as (c0 & rest & -> & HF & Eb & En & Es).
  rewrite Forall_forall in *. intros ci Hci. destruct (HF ci Hci) as (S1 & C1).
  destruct (HV ci Hci) as (bl & E1 & V1). destruct (HV c0 (or_introl eq_refl)) as (bl0 & E0 & V0).
  destruct (compatible_same_axes c0 ci bl0 bl E0 E1 V0 V1 C1) as (A & B). rewrite Eb, En, Es. auto.
Qed.

Section Checked.
Context {V : Type}.
Notation recd := (key * V)%type.

Lemma create_g_checked n o vcheck (chunks : list (list recd)) m :
  create_g n o vcheck chunks = Ok m -> Forall (fun p => vcheck (snd p) = true) (mc_px m).
Proof.
  intro H. apply create_g_ok in H. destruct H as (cs & F & ->). cbn [mc_px mk_cool]. apply Forall_concat.
  induction F as [|ch ch' t t' Hc _ IH]; constructor; [|exact IH].
  unfold check_chunk in Hc. destruct (validate_pixels _ _ _ _ _ ch) as [c|e]; cbn [bind] in Hc; [|discriminate].
  destruct (forallb _ c) eqn:Ef; inversion Hc; subst. rewrite forallb_forall in Ef. apply Forall_forall. exact Ef.
Qed.

(** a merge pass either fails or stores, for every pixel, exactly the aggregate of that pixel's input values,
    and every stored value passed the range check of the output dtype *)
Theorem merge_pass_checked n o vcheck agg (inputs : list (mcool V)) buf :
  (1 <= n)%nat -> 0 <= buf -> Forall (ValidIn n) inputs ->
  match merge_g n o vcheck agg inputs buf with
  | Err _ => True
  | Ok m => mc_px m = groupby_agg agg (allpx inputs) /\
            forall k v, In (k, v) (mc_px m) -> v = agg (vals (allpx inputs) k) /\ vcheck v = true
  end.
Proof.
  intros Hn Hb HV. destruct (merge_g n o vcheck agg inputs buf) as [m|e] eqn:E; [|exact I].
  pose proof E as E'. apply merge_g_exact in E; auto. destruct E as (Hne & ->). cbn [mc_px mk_cool]. split; [reflexivity|].
  intros k v Hin. split; [now apply groupby_agg_value in Hin|].
  destruct inputs as [|c0 t]; [contradiction|]. cbn [merge_g] in E'.
  destruct (cooler_merger agg (c0 :: t) buf) as [eps|e]; cbn [bind] in E'; [|discriminate].
  apply create_g_checked in E'. cbn [mc_px mk_cool] in E'. rewrite Forall_forall in E'. apply (E' (k, v) Hin).
Qed.
End Checked.

(** wrap64 x = (x + 2^63) mod 2^64 - 2^63 is the int64 that two's-complement addition leaves (Model/Merge.v) *)
Lemma wrap64_id x : - 2 ^ 63 <= x < 2 ^ 63 -> wrap64 x = x.
Proof. intros H. unfold wrap64. rewrite Z.mod_small; lia. Qed.
Lemma wrap64_range x : - 2 ^ 63 <= wrap64 x < 2 ^ 63.
Proof. unfold wrap64. pose proof (Z.mod_pos_bound (x + 2 ^ 63) (2 ^ 64) ltac:(lia)). lia. Qed.
Lemma wrap64_mod x : wrap64 x mod 2 ^ 64 = x mod 2 ^ 64.
Proof.
  unfold wrap64. rewrite Zminus_mod, Zmod_mod, <- Zminus_mod. f_equal. lia.
Qed.
Lemma wrap64_congr a b : a mod 2 ^ 64 = b mod 2 ^ 64 -> wrap64 a = wrap64 b.
Proof. intro H. unfold wrap64. rewrite (Zplus_mod a), (Zplus_mod b), H. reflexivity. Qed.
Lemma wrap64_add a b : wrap64 (wrap64 a + b) = wrap64 (a + b).
Proof. apply wrap64_congr. rewrite Zplus_mod, wrap64_mod, <- Zplus_mod. reflexivity. Qed.
Lemma wrap64_add_r a b : wrap64 (a + wrap64 b) = wrap64 (a + b).
Proof. rewrite Z.add_comm, wrap64_add. f_equal. lia. Qed.
(** the integer sum is exact as long as the exact sum fits int64 (pandas accumulates in int64) *)
Lemma agg_col_sum_exact vs : - 2 ^ 63 <= sumZ vs < 2 ^ 63 -> agg_col ASum vs = sumZ vs.
Proof. apply wrap64_id. Qed.
Lemma fits_spec bits v : fits bits v = true <-> - 2 ^ (bits - 1) <= v <= 2 ^ (bits - 1) - 1.
Proof. unfold fits. lia. Qed.

Lemma filter_rows_map {A B} (f : A -> B) (l : list (key * A)) b :
  length (filter (fun p => fst (fst p) <? b) (map (fun p => (fst p, f (snd p))) l))
  = length (filter (fun p => fst (fst p) <? b) l).
Proof.
  induction l as [|[[i j] v] t IH]; [reflexivity|]. simpl. destruct (i <? b); simpl; rewrite IH; reflexivity.
Qed.
Lemma project_valid n (c : cooler) poss : ValidIn n (as_mcool c) -> ValidIn n (project c poss).
Proof.
  intros [Ho Hs Hr]. cbn [as_mcool mc_off mc_px] in *. unfold project. constructor; cbn [mc_off mc_px].
  - rewrite Ho. unfold index_of. apply map_ext. intro b. unfold zlen. f_equal. symmetry. apply (filter_rows_map (fun r : list Z => map (fun i => nth i r 0) poss)).
  - unfold RowSorted in *. rewrite map_map. exact Hs.
  - rewrite Forall_map. exact Hr.
Qed.

Lemma projected_valid n inputs poss : Forall (fun ci => ValidIn n (as_mcool ci)) inputs ->
  Forall (ValidIn n) (map (fun cp => project (fst cp) (snd cp)) (combine inputs poss)).
Proof.
  intro HV. rewrite Forall_map. apply Forall_forall. intros [ci ps] Hin. apply project_valid.
  apply in_combine_l in Hin. rewrite Forall_forall in HV. now apply HV.
Qed.

Lemma agg_row_nth ops rows j op : nth_error ops j = Some op ->
  nth j (agg_row ops rows) 0 = agg_col op (map (fun r => nth j r 0) rows).
Proof.
  intro H. assert (Hj : (j < length ops)%nat) by (apply nth_error_Some; congruence).
  unfold agg_row. apply nth_error_nth. rewrite (map_nth_error _ j _ (d := (j, op))); [reflexivity|].
  apply nth_error_combine; [|exact H]. rewrite (nth_error_nth' _ O), seq_nth by now rewrite ?seq_length. reflexivity.
Qed.

Lemma all_some_length {A} (l : list (option A)) : forall r, all_some l = Some r -> length r = length l.
Proof.
  induction l as [|[x|] t IH]; intros r H; cbn [all_some] in H; [inversion H; reflexivity| |discriminate].
  destruct (all_some t) as [r'|]; cbn in H; [|discriminate]. inversion H. cbn [length]. f_equal. now apply IH.
Qed.

(** the column-projected inputs merge_coolers hands to the merger *)
Definition proj_inputs (inputs : list cooler) (columns : option (list Z)) : list (mcool (list Z)) :=
  match all_some (map (fun ci => all_some (map (col_pos (c_cols ci)) (mc_columns columns))) inputs) with
  | Some poss => map (fun cp => project (fst cp) (snd cp)) (combine inputs poss)
  | None => []
  end.

Lemma project_shape inputs : forall poss, length poss = length inputs ->
  Forall2 (fun ci pi => map fst (mc_px pi) = map fst (c_px ci) /\ mc_off pi = c_off ci) inputs
          (map (fun cp => project (fst cp) (snd cp)) (combine inputs poss)).
Proof.
  induction inputs as [|a t IH]; intros [|p ps] Lp; try discriminate; cbn [combine map]; constructor.
  - unfold project. cbn [mc_px mc_off fst snd]. rewrite map_map. now split.
  - apply IH. now injection Lp.
Qed.

(** what merge_coolers stores, in terms of the projected inputs: the group-by table, the recorded total, and for
    every stored row the per-column aggregates, all within the output dtypes *)
Lemma merge_coolers_px inputs buf columns dtypes aggs c :
  0 <= buf -> (1 <= c_nbins (hd c inputs))%nat ->
  Forall (fun ci => ValidIn (c_nbins (hd ci inputs)) (as_mcool ci)) inputs ->
  merge_coolers inputs buf columns dtypes aggs = Ok c ->
  c_px c = groupby_agg (agg_row (mc_ops columns aggs)) (allpx (proj_inputs inputs columns)) /\
  c_sum c = sum_count (mc_columns columns) (c_px c) /\
  Forall2 (fun ci pi => map fst (mc_px pi) = map fst (c_px ci) /\ mc_off pi = c_off ci) inputs (proj_inputs inputs columns) /\
  forall k row, In (k, row) (c_px c) ->
    row = agg_row (mc_ops columns aggs) (vals (allpx (proj_inputs inputs columns)) k) /\
    fits_row (map snd (c_cols c)) row = true.
Proof.
  intros Hb Hn HV E.
  apply merge_coolers_unfold in E. destruct E as (c0 & rest & poss & ob & m & -> & Ep & Hl & Em & E1 & E2 & E3 & E4 & _).
  cbn [hd] in *. unfold proj_inputs. rewrite Ep. set (inputs := c0 :: rest) in *.
  set (projected := map (fun cp => project (fst cp) (snd cp)) (combine inputs poss)) in *.
  pose proof (merge_pass_checked (c_nbins c0) {| o_bounds := true; o_triu := c_symm c0; o_dup := true; o_sort := false |} (fits_row ob) (agg_row (mc_ops columns aggs)) projected buf Hn Hb
                (projected_valid _ _ poss HV)) as MP.
  rewrite Em in MP. destruct MP as (MP1 & MP2). rewrite E4, E1, E3, map_snd_combine by (symmetry; exact Hl).
  split; [exact MP1|]. split; [reflexivity|]. split; [|exact MP2].
  apply project_shape. apply all_some_length in Ep. now rewrite map_length in Ep.
Qed.

(** Guarded form: merge_coolers either fails or stores, for every pixel, the row of per-column
    aggregates of that pixel's values over the inputs (in the model's machine arithmetic: sums accumulate in
    int64), and every stored value lies in the range of its output dtype.  With [agg_col_sum_exact]: a stored
    sum equals the exact integer sum whenever the exact sum fits int64. *)
Theorem no_silent_overflow inputs buf columns dtypes aggs :
  0 <= buf -> (1 <= c_nbins (hd {| c_names := []; c_bins := []; c_symm := true; c_cols := []; c_off := []; c_px := []; c_sum := 0 |} inputs))%nat ->
  Forall (fun ci => ValidIn (c_nbins (hd ci inputs)) (as_mcool ci)) inputs ->
  match merge_coolers inputs buf columns dtypes aggs with
  | Err _ => True
  | Ok c => exists projected,
      Forall2 (fun ci pi => map fst (mc_px pi) = map fst (c_px ci) /\ mc_off pi = c_off ci) inputs projected /\
      c_px c = groupby_agg (agg_row (mc_ops columns aggs)) (allpx projected) /\
      forall k row, In (k, row) (c_px c) ->
        row = agg_row (mc_ops columns aggs) (vals (allpx projected) k) /\
        fits_row (map snd (c_cols c)) row = true
  end.
Proof.
  intros Hb Hn HV. destruct (merge_coolers inputs buf columns dtypes aggs) as [c|e] eqn:E; [|exact I].
  destruct inputs as [|c0 rest]; [discriminate|].
  destruct (merge_coolers_px (c0 :: rest) _ _ _ _ c Hb Hn HV E) as (A & _ & B & C). now exists (proj_inputs (c0 :: rest) columns).
Qed.

Section KeyChecks.
Context {V : Type}.
Notation recd := (key * V)%type.
Variables (n : nat) (o : copts) (agg : list V -> V).

(** what the validator demands of a key under the options in force *)
Definition KeyOK (k : key) : Prop :=
  (o_bounds o = true -> 0 <= fst k < Z.of_nat n /\ 0 <= snd k < Z.of_nat n) /\
  (o_triu o = true -> fst k <= snd k).

Lemma guarded_test_false (b : bool) {A} (f : A -> bool) l :
  b && existsb f l = false <-> (b = true -> Forall (fun x => f x = false) l).
Proof. rewrite <- (existsb_false_Forall f _ l (fun x => iff_refl _)). destruct b; cbn [andb]; intuition congruence. Qed.

(** [KeyOK] is what the three key tests of validate_pixels ask of one record *)
Lemma keyok_tests (p : recd) : KeyOK (fst p) <->
  (o_bounds o = true -> (fst (fst p) <? 0) || (snd (fst p) <? 0) = false) /\
  (o_bounds o = true -> (Z.of_nat n <=? fst (fst p)) || (Z.of_nat n <=? snd (fst p)) = false) /\
  (o_triu o = true -> snd (fst p) <? fst (fst p) = false).
Proof.
  unfold KeyOK. destruct p as [[i j] v]. cbn [fst snd]. split.
  - intros (H1 & H2). repeat split; intro E; [specialize (H1 E)|specialize (H1 E)|specialize (H2 E)]; lia.
  - intros (H1 & H2 & H3). split; intro E; [specialize (H1 E); specialize (H2 E)|specialize (H3 E)]; lia.
Qed.
Lemma validate_pixels_tests (ch : list recd) : Forall (fun p => KeyOK (fst p)) ch <->
  o_bounds o && existsb (fun p : Z * Z * V => (fst (fst p) <? 0) || (snd (fst p) <? 0)) ch = false /\
  o_bounds o && existsb (fun p : Z * Z * V => (Z.of_nat n <=? fst (fst p)) || (Z.of_nat n <=? snd (fst p))) ch = false /\
  o_triu o && existsb (fun p : Z * Z * V => snd (fst p) <? fst (fst p)) ch = false.
Proof.
  rewrite !guarded_test_false, !Forall_forall. split.
  - intros H. repeat split; intros E p Hp; destruct (proj1 (keyok_tests p) (H p Hp)) as (A & B & C); auto.
  - intros (H1 & H2 & H3) p Hp. apply keyok_tests. repeat split; intro E; auto.
Qed.

Lemma validate_total (ch : list recd) :
  Forall (fun p => KeyOK (fst p)) ch -> (o_dup o = true -> has_dup ch = false) ->
  exists ch', validate_pixels (Z.of_nat n) (o_bounds o) (o_triu o) (o_dup o) (o_sort o) ch = Ok ch'.
Proof.
  intros HK HD. unfold validate_pixels. apply validate_pixels_tests in HK. destruct HK as (-> & -> & ->).
  destruct (o_dup o); [rewrite HD by reflexivity|]; eexists; reflexivity.
Qed.

Lemma validate_keyok (ch ch' : list recd) :
  validate_pixels (Z.of_nat n) (o_bounds o) (o_triu o) (o_dup o) (o_sort o) ch = Ok ch' ->
  Forall (fun p => KeyOK (fst p)) ch.
Proof.
  intro H. apply validate_pixels_tests. apply validate_ok in H. tauto.
Qed.

Lemma has_dup_sorted (e : list recd) : StronglySorted klt (map fst e) -> has_dup e = false.
Proof.
  induction e as [|p t IH]; cbn [map has_dup]; intro H; [reflexivity|]. inversion H as [|? ? Ht HF]; subst.
  rewrite (IH Ht), orb_false_r. apply (existsb_false_Forall _ (fun q => fst p <> fst q)); [intro; apply keqb_neq|]. rewrite Forall_map in HF.
  eapply Forall_impl; [|exact HF]. intros q Hq E. rewrite E in Hq. now apply (klt_irrefl (fst q)).
Qed.

Lemma check_chunk_total (ch : list recd) :
  Forall (fun p => KeyOK (fst p)) ch -> (o_dup o = true -> has_dup ch = false) ->
  exists ch', check_chunk (Z.of_nat n) o (fun _ => true) ch = Ok ch'.
Proof.
  intros HK HD. unfold check_chunk. destruct (validate_total ch HK HD) as (ch' & ->). cbn [bind].
  replace (forallb (fun _ : recd => true) ch') with true; [eexists; reflexivity|].
  symmetry. apply forallb_forall. reflexivity.
Qed.

(** a merge pass over valid inputs whose keys satisfy the validator cannot fail: every epoch is sorted, so it
    has no duplicate and is written as it is, and its keys are keys of the inputs *)
Lemma merge_g_total (inputs : list (mcool V)) buf :
  (1 <= n)%nat -> 0 <= buf -> inputs <> [] -> Forall (ValidIn n) inputs ->
  Forall (fun p => KeyOK (fst p)) (allpx inputs) ->
  merge_g n o (fun _ => true) agg inputs buf = Ok (mk_cool n (groupby_agg agg (allpx inputs))).
Proof.
  intros Hn Hb Hne HV HK. destruct (merger_exact agg n inputs buf Hne Hn HV Hb) as (eps & E & Ec & _).
  pose proof (cooler_merger_sorted _ _ _ _ E) as S1.
  assert (HKe : Forall (Forall (fun p => KeyOK (fst p))) eps) by (apply Forall_concat; rewrite Ec; now apply groupby_agg_forall).
  rewrite (merge_g_nonempty _ _ _ _ _ _ Hne), E. cbn [bind]. unfold create_g.
  rewrite (mapM_map _ (fun e => e)), map_id; [cbn [bind]; now rewrite Ec|].
  intros e He. rewrite Forall_forall in S1, HKe.
  destruct (check_chunk_total e (HKe e He) (fun _ => has_dup_sorted e (S1 e He))) as (e' & Ee).
  rewrite Ee. f_equal. exact (check_chunk_sorted _ _ _ _ _ (S1 e He) Ee).
Qed.
End KeyChecks.

Section IngestionSucceeds.
Context {V : Type}.
Notation recd := (key * V)%type.
Variables (n : nat) (o : copts) (agg : list V -> V).
Notation KOK := (fun p : recd => KeyOK n o (fst p)).

(** what every cooler of an ingestion satisfies: a valid input whose keys the validator accepts *)
Notation Good := (fun t : mcool V => ValidIn n t /\ Forall KOK (mc_px t)).
Lemma merge_pass_ok (inputs : list (mcool V)) buf : (1 <= n)%nat -> 0 <= buf -> inputs <> [] -> Forall Good inputs ->
  exists m, merge_g n o (fun _ => true) agg inputs buf = Ok m /\ Good m.
Proof.
  intros Hn Hb Hne HG. apply Forall_and_inv in HG. destruct HG as (HV & HK). apply allpx_forall in HK.
  eexists. split; [now apply merge_g_total|]. split; [now apply valid_merged|]. cbn [mc_px mk_cool].
  now apply (groupby_agg_forall (KeyOK n o)).
Qed.

Lemma nslice_nonempty {A} (l : list A) lo hi : (lo < hi <= length l)%nat -> nslice l lo hi <> [].
Proof.
  intros H E. apply (f_equal (@length A)) in E. unfold nslice in E. rewrite firstn_length, skipn_length in E. cbn in E. lia.
Qed.

(** An unordered ingestion of at least one chunk cannot fail in the merge machinery (no exhausted
    fuel, no IndexError -- defect D9 --, no rejected merge epoch -- defect D16 --), for every mergebuf >= 0,
    single pass or any admissible edge list, provided each input chunk itself is acceptable to the
    validator (keys in range / upper-triangular / duplicate-free as far as the options demand) and sorted
    by bin1_id or sorting is requested.  The dtype range check is taken out of the picture (vcheck = true):
    value overflow is property C07's subject. *)
Theorem unordered_total (chunks : list (list recd)) buf edges :
  (1 <= n)%nat -> 0 <= buf -> chunks <> [] ->
  Forall (fun ch => Forall KOK ch /\ (o_dup o = true -> has_dup ch = false) /\
                    (o_sort o = true \/ RowSorted ch) /\ Forall (fun p => 0 <= rowof p < Z.of_nat n) ch) chunks ->
  match edges with Some e => Admissible (length chunks) e | None => True end ->
  exists m, unordered_g n o (fun _ => true) agg chunks buf edges = Ok m.
Proof.
  intros Hn Hb Hne HC HE. unfold unordered_g.
  destruct (mapM_total Good (fun ch => create_g n o (fun _ => true) [ch]) chunks) as (temps & -> & TG & TL).
  { eapply Forall_impl; [|exact HC]. intros ch (HK & HD & Hs & Hr).
    destruct (check_chunk_total n o ch HK HD) as (ch' & Ec).
    assert (Et : create_g n o (fun _ => true) [ch] = Ok (mk_cool n (ch' ++ []))) by (unfold create_g; cbn [mapM]; now rewrite Ec).
    eexists. split; [exact Et|]. destruct (create_g_single n o _ ch _ Hs Hr Et) as (Hv & Hp).
    split; [exact Hv|]. eapply Permutation_Forall; eassumption. }
  assert (Tne : temps <> []) by (destruct temps, chunks; try discriminate; contradiction).
  cbn [bind]. destruct edges as [e|]; cbn [bind]; [|destruct (merge_pass_ok temps buf) as (m & -> & _); eauto].
  destruct (mapM_total Good (fun lh => merge_g n o (fun _ => true) agg (nslice temps (fst lh) (snd lh)) buf) (pairs e))
    as (finals & -> & FG & FL).
  { destruct HE as (H0 & Hl & HS). destruct e as [|a rest]; [constructor|]. cbn [hd] in H0. subst a. rewrite last_cons in Hl.
    eapply Forall_impl; [|apply (pairs_bounds rest O (length temps) HS); lia].
    intros lh Hlh. apply merge_pass_ok; auto; [now apply nslice_nonempty|now apply forall_nslice]. }
  cbn [bind]. destruct (merge_pass_ok finals buf) as (m & -> & _); eauto.
  (* finals <> []: e runs from 0 to length chunks >= 1 (this is where linspace's edges failed for 2 and 3 chunks,
     defect D9), so it has at least two points and [pairs e] at least one pair *)
  destruct HE as (H0 & Hl & HS). destruct e as [|a [|b rest]]; [cbn in H0; lia| |destruct finals; discriminate].
  cbn in H0, Hl. destruct chunks; [contradiction|cbn in Hl; lia].
Qed.
End IngestionSucceeds.

(** total form for counts: the ingestion succeeds and stores the in-memory aggregate *)
Corollary unordered_correct n o (chunks : list (list pixel)) buf edges :
  (1 <= n)%nat -> 0 <= buf -> chunks <> [] ->
  Forall (fun ch => Forall (fun p => KeyOK n o (fst p)) ch /\ (o_dup o = true -> has_dup ch = false) /\
                    (o_sort o = true \/ RowSorted ch) /\ Forall (fun p => 0 <= rowof p < Z.of_nat n) ch) chunks ->
  match edges with Some e => Admissible (length chunks) e | None => True end ->
  unordered_g n o (fun _ => true) sumZ chunks buf edges = Ok (mk_cool n (aggregate (concat chunks))).
Proof.
  intros Hn Hb Hne HC HE. destruct (unordered_total n o sumZ chunks buf edges Hn Hb Hne HC HE) as (m & Em).
  rewrite Em. f_equal. rewrite <- groupby_sum_aggregate.
  apply (unordered_exact n o (fun _ => true) sumZ sum_perm sum_two_level chunks buf edges m Hn Hb); auto.
  eapply Forall_impl; [|exact HC]. cbn. tauto.
Qed.

(** int64 machine sum (what pandas computes): composes without side condition as well *)
Lemma wsum_compose : forall Gs : list (list Z), agg_col ASum (map (agg_col ASum) Gs) = agg_col ASum (concat Gs).
Proof.
  induction Gs as [|G t IH]; [reflexivity|]. cbn [map concat]. cbn [agg_col] in *. rewrite sumZ_cons, sumZ_app.
  rewrite wrap64_add, <- wrap64_add_r, IH, wrap64_add_r. reflexivity.
Qed.

(** create_from_unordered (Model/Merge.v) sums every requested column *)
Definition sum_ops {A} (cols : list A) : list aggop := map (fun _ => ASum) cols.

Lemma in_combine_seq {A} (ops : list A) : forall s j op,
  In (j, op) (combine (seq s (length ops)) ops) -> (s <= j)%nat /\ nth_error ops (j - s) = Some op.
Proof.
  induction ops as [|a ops IH]; intros s j op Hin; [contradiction|].
  cbn [length seq combine] in Hin. destruct Hin as [E|Hin].
  - inversion E; subst. split; [lia|]. now rewrite Nat.sub_diag.
  - destruct (IH (S s) j op Hin) as (H1 & H2). split; [lia|].
    replace (j - s)%nat with (S (j - S s)) by lia. exact H2.
Qed.
Lemma agg_row_ext ops X Y :
  (forall j op, nth_error ops j = Some op ->
     agg_col op (map (fun r => nth j r 0) X) = agg_col op (map (fun r => nth j r 0) Y)) ->
  agg_row ops X = agg_row ops Y.
Proof.
  intro H. unfold agg_row. apply map_ext_in. intros [j op] Hin. cbn [fst snd]. apply H.
  apply in_combine_seq in Hin. destruct Hin as (_ & Hn). now rewrite Nat.sub_0_r in Hn.
Qed.

Lemma sum_ops_nth {A} (cols : list A) j op : nth_error (sum_ops cols) j = Some op -> op = ASum.
Proof.
  unfold sum_ops. intro H. apply nth_error_In in H. apply in_map_iff in H. destruct H as (? & E & _). now symmetry.
Qed.

Lemma sum_rows_perm {A} (cols : list A) (rows rows' : list (list Z)) :
  Permutation rows rows' -> agg_row (sum_ops cols) rows = agg_row (sum_ops cols) rows'.
Proof.
  intro HP. apply agg_row_ext. intros j op Hop. apply sum_ops_nth in Hop. subst op. cbn [agg_col]. f_equal.
  apply sumZ_perm. now apply Permutation_map.
Qed.
Lemma sum_rows_decomp {A} (cols : list A) (xss : list (list (list Z))) :
  agg_row (sum_ops cols) (concat (map (fun xs => match xs with [] => [] | _ => [agg_row (sum_ops cols) xs] end) xss))
  = agg_row (sum_ops cols) (concat xss).
Proof.
  apply agg_row_ext. intros j op Hop. pose proof (sum_ops_nth cols j op Hop) as ->.
  rewrite !concat_map, <- (compose_decomp _ (fun Gs _ => wsum_compose Gs) (map (map (fun r => nth j r 0)) xss)). f_equal.
  rewrite !map_map. f_equal. apply map_ext. intros [|x xs]; [reflexivity|].
  cbn [map]. f_equal. apply (agg_row_nth (sum_ops cols) (x :: xs) j ASum Hop).
Qed.

(** [unordered_exact] for the executable model (all requested integer columns, int64 accumulation, dtype range
    checks, validation options, the computed edge list): row-wise int64 sums obey both laws *)
Theorem create_from_unordered_exact names bins symm cols bc tc dc es chunks buf mm c :
  (1 <= length bins)%nat -> 0 <= buf -> chunks <> [] ->
  Forall (fun ch => (es = true \/ RowSorted ch) /\ Forall (fun p => 0 <= rowof p < Z.of_nat (length bins)) ch) chunks ->
  create_from_unordered names bins symm cols bc tc dc es chunks buf mm = Ok c ->
  c_px c = groupby_agg (agg_row (sum_ops cols)) (concat chunks) /\
  c_off c = index_of (length bins) (c_px c) /\ c_bins c = bins /\ c_symm c = symm /\ c_cols c = cols.
Proof.
  intros Hn Hb Hne HC H. unfold create_from_unordered in H.
  destruct (unordered_g _ _ _ _ _ _ _) as [m|e] eqn:E; cbn [bind] in H; [|discriminate].
  inversion H; subst c. cbn [c_px c_off c_bins c_symm c_cols].
  fold (sum_ops cols) in E.
  apply (unordered_exact (length bins) _ _ (agg_row (sum_ops cols))) in E; auto.
  - subst m. cbn [mc_px mc_off mk_cool]. repeat split; reflexivity.
  - exact (groupby_agg_perm _ (sum_rows_perm cols)).
  - exact (groupby_agg_two_level _ (sum_rows_decomp cols)).
  - destruct (unordered_edges (length chunks) mm) eqn:Ee; [|exact I].
    pose proof (unordered_edges_ok (length chunks) mm) as HA. rewrite Ee in HA. apply HA.
    destruct chunks; [contradiction|cbn; lia].
Qed.

(** the three integer aggregations of the model, as plain functions list Z -> Z
    ([agg_col AMax vs] is by definition [fold_right Z.max (hd 0 vs) vs], [agg_col AMin] likewise) *)
Definition lmax (vs : list Z) : Z := agg_col AMax vs.
Definition lmin (vs : list Z) : Z := agg_col AMin vs.

Section Extremum.
(** a selection function f (max or min) w.r.t. an order le *)
Variables (f : Z -> Z -> Z) (le : Z -> Z -> Prop).
Hypothesis le_refl : forall a, le a a.
Hypothesis le_trans : forall a b c, le a b -> le b c -> le a c.
Hypothesis f_sel : forall a b, f a b = a \/ f a b = b.
Hypothesis f_ub1 : forall a b, le a (f a b).
Hypothesis f_ub2 : forall a b, le b (f a b).

Definition ext (vs : list Z) : Z := fold_right f (hd 0 vs) vs.

Lemma fold_ext_facts d vs : let m := fold_right f d vs in
  (m = d \/ In m vs) /\ le d m /\ forall x, In x vs -> le x m.
Proof.
  induction vs as [|v t (A & B & C)]; cbn [fold_right]; [repeat split; [now left|apply le_refl|intros ? []]|].
  set (r := fold_right f d t) in *. repeat split.
  - destruct (f_sel v r) as [E|E]; rewrite E; [right; now left|]. destruct A as [A|A]; [now left|right; now right].
  - eapply le_trans; [exact B|apply f_ub2].
  - intros x [<-|Hx]; [apply f_ub1|]. eapply le_trans; [now apply C|apply f_ub2].
Qed.
Lemma ext_spec : IsExtremum le ext.
Proof.
  intros [|v t] N; [contradiction|]. destruct (fold_ext_facts v (v :: t)) as (A & _ & C). split; [|exact C].
  destruct A as [A|A]; [unfold ext; cbn [hd]; rewrite A; now left|exact A].
Qed.
End Extremum.

Lemma lmax_extremum : IsExtremum Z.le lmax. Proof. apply (ext_spec Z.max); intros; lia. Qed.
Lemma lmin_extremum : IsExtremum Z.ge lmin. Proof. apply (ext_spec Z.min); intros; lia. Qed.

Lemma max_compose : forall Gs : list (list Z), Forall (fun G => G <> []) Gs -> lmax (map lmax Gs) = lmax (concat Gs).
Proof. apply (extremum_composes Z.le lmax Z.le_antisymm lmax_extremum). Qed.
Lemma min_compose : forall Gs : list (list Z), Forall (fun G => G <> []) Gs -> lmin (map lmin Gs) = lmin (concat Gs).
Proof. apply (extremum_composes Z.ge lmin); [intros; lia|exact lmin_extremum]. Qed.
Lemma max_perm vs vs' : Permutation vs vs' -> lmax vs = lmax vs'.
Proof. apply (extremum_perm Z.le lmax Z.le_antisymm lmax_extremum). Qed.
Lemma min_perm vs vs' : Permutation vs vs' -> lmin vs = lmin vs'.
Proof. apply (extremum_perm Z.ge lmin); [intros; lia|exact lmin_extremum]. Qed.
Lemma max_single v : lmax [v] = v. Proof. exact (Z.max_id v). Qed.
Lemma min_single v : lmin [v] = v. Proof. exact (Z.min_id v). Qed.
(** without the non-emptiness side condition the law is false for max/min (an empty group contributes
    the default 0): the witness *)
Lemma max_compose_unguarded_refuted : exists Gs, lmax (map lmax Gs) <> lmax (concat Gs).
Proof. exists [[]; [-5]]. vm_compute. discriminate. Qed.
Lemma min_compose_unguarded_refuted : exists Gs, lmin (map lmin Gs) <> lmin (concat Gs).
Proof. exists [[]; [5]]. vm_compute. discriminate. Qed.

Corollary unordered_independent_max n o o' vc vc' (chunks chunks' : list (list pixel)) buf buf' edges edges' m m' :
  (1 <= n)%nat -> 0 <= buf -> 0 <= buf' -> Permutation (concat chunks) (concat chunks') ->
  Forall (fun ch => (o_sort o = true \/ RowSorted ch) /\ Forall (fun p => 0 <= rowof p < Z.of_nat n) ch) chunks ->
  Forall (fun ch => (o_sort o' = true \/ RowSorted ch) /\ Forall (fun p => 0 <= rowof p < Z.of_nat n) ch) chunks' ->
  match edges with Some e => Admissible (length chunks) e | None => True end ->
  match edges' with Some e => Admissible (length chunks') e | None => True end ->
  unordered_g n o vc lmax chunks buf edges = Ok m -> unordered_g n o' vc' lmax chunks' buf' edges' = Ok m' -> m = m'.
Proof. apply (unordered_independent_gen lmax max_perm max_compose). Qed.
Corollary unordered_independent_min n o o' vc vc' (chunks chunks' : list (list pixel)) buf buf' edges edges' m m' :
  (1 <= n)%nat -> 0 <= buf -> 0 <= buf' -> Permutation (concat chunks) (concat chunks') ->
  Forall (fun ch => (o_sort o = true \/ RowSorted ch) /\ Forall (fun p => 0 <= rowof p < Z.of_nat n) ch) chunks ->
  Forall (fun ch => (o_sort o' = true \/ RowSorted ch) /\ Forall (fun p => 0 <= rowof p < Z.of_nat n) ch) chunks' ->
  match edges with Some e => Admissible (length chunks) e | None => True end ->
  match edges' with Some e => Admissible (length chunks') e | None => True end ->
  unordered_g n o vc lmin chunks buf edges = Ok m -> unordered_g n o' vc' lmin chunks' buf' edges' = Ok m' -> m = m'.
Proof. apply (unordered_independent_gen lmin min_perm min_compose). Qed.

Definition colproj (j : nat) (l : list (key * list Z)) : list pixel := map (fun p => (fst p, nth j (snd p) 0)) l.

(** C07, multi-column merges: column j of the merged table, when it is summed and no per-pixel sum leaves
    int64, is the canonical aggregate (Model/Pixels.v) of column j of all input records *)
Theorem column_canon ops (l : list (key * list Z)) j :
  nth_error ops j = Some ASum ->
  (forall k, In k (map fst l) -> - 2 ^ 63 <= sumZ (vals (colproj j l) k) < 2 ^ 63) ->
  colproj j (groupby_agg (agg_row ops) l) = aggregate (colproj j l) /\
  Canon (colproj j l) (colproj j (groupby_agg (agg_row ops) l)) /\
  total (colproj j (groupby_agg (agg_row ops) l)) = total (colproj j l).
Proof.
  intros Hop Hfit.
  assert (E : colproj j (groupby_agg (agg_row ops) l) = aggregate (colproj j l)).
  { unfold colproj. change (map (fun p : key * list Z => (fst p, nth j (snd p) 0)) ?x) with (vmap (fun r : list Z => nth j r 0) x).
    rewrite <- (groupby_agg_map (fun r : list Z => nth j r 0) (agg_row ops) (agg_col ASum)).
    - rewrite <- groupby_sum_aggregate. apply groupby_agg_rel; [reflexivity|]. intros k Hk. apply agg_col_sum_exact. apply Hfit.
      unfold vmap in Hk. rewrite map_map in Hk. cbn [fst] in Hk. exact Hk.
    - intros vs. symmetry. now apply agg_row_nth. }
  rewrite E. split; [reflexivity|]. split; [apply aggregate_canon|apply sum_aggregate].
Qed.

Lemma sum_count_spec columns px i : col_pos (map (fun c => (c, 0)) columns) 0 = Some i ->
  sum_count columns px = wrap64 (total (colproj i px)).
Proof. intro H. unfold sum_count, total, colproj. rewrite H, map_map. reflexivity. Qed.

(** C07: "the recorded total is the sum of the input totals" -- guarded form.  With count among the merged
    columns (position i), summed, no per-pixel sum leaving int64: the recorded total is the int64 wrap of the
    exact sum of all input counts, hence EQUAL to it whenever that exact total fits int64 *)
Theorem total_exact_within_int64 inputs buf columns dtypes aggs c i :
  0 <= buf -> (1 <= c_nbins (hd c inputs))%nat ->
  Forall (fun ci => ValidIn (c_nbins (hd ci inputs)) (as_mcool ci)) inputs ->
  merge_coolers inputs buf columns dtypes aggs = Ok c ->
  col_pos (map (fun c => (c, 0)) (mc_columns columns)) 0 = Some i ->
  nth_error (mc_ops columns aggs) i = Some ASum ->
  let all_counts := colproj i (allpx (proj_inputs inputs columns)) in
  (forall k, In k (map fst all_counts) -> - 2 ^ 63 <= sumZ (vals all_counts k) < 2 ^ 63) ->
  c_sum c = wrap64 (total all_counts) /\
  (- 2 ^ 63 <= total all_counts < 2 ^ 63 -> c_sum c = total all_counts).
Proof.
  intros Hb Hn HV E Hi Hop ac Hfit. destruct (merge_coolers_px _ _ _ _ _ _ Hb Hn HV E) as (Epx & Esum & _).
  rewrite Esum, (sum_count_spec _ _ i Hi), Epx.
  destruct (column_canon (mc_ops columns aggs) (allpx (proj_inputs inputs columns)) i Hop) as (_ & _ & T).
  { intros k Hk. apply Hfit. subst ac. unfold colproj. rewrite map_map. cbn [fst]. exact Hk. }
  rewrite T. fold ac. split; [reflexivity|apply wrap64_id].
Qed.

(** C19  Proofs about the string-parser model (Model/Text.v).
    A run of a character class is a [take_while]/[drop_while] split, and such a split is unique ([span_app]):
    on that rest [parse_region_string_eq] (name and coordinate text are cut at the first two colons), the two
    directions for one regex match ([match_at_ctok_munch], [match_at_inv]) and the equations for the grammar on the
    token stream ([expect_tokenize_closed], [expect_tokenize_open], [expect_tokenize_inv]).  The round trips, the
    refusals and the accepted language are put together from these.  Last, the "::" splitter of parse_cooler_uri. *)
From Coq Require Import ZifyBool.
From Cooler Require Import Model.Text.

(** [code] reads the eight bits as [N_of_ascii] does, four at a time *)
Lemma nibble_spec : forall b0 b1 b2 b3 l,
  Z.of_N (N_of_digits (b0 :: b1 :: b2 :: b3 :: l)) = nibble b0 b1 b2 b3 + 16 * Z.of_N (N_of_digits l).
Proof. intros [] [] [] [] l; cbn [N_of_digits nibble]; destruct (N_of_digits l); reflexivity. Qed.

Lemma code_spec : forall c, code c = Z.of_N (N_of_ascii c).
Proof. intros []. unfold code, N_of_ascii. rewrite !nibble_spec. cbn [N_of_digits]. lia. Qed.

Lemma code_range : forall c, 0 <= code c < 256.
Proof. intros c. rewrite code_spec. pose proof (N_ascii_bounded c). lia. Qed.

Lemma code_inj : forall a b, code a = code b -> a = b.
Proof.
  intros a b H. rewrite !code_spec in H. apply N2Z.inj in H.
  rewrite <- (ascii_N_embedding a), <- (ascii_N_embedding b). now rewrite H.
Qed.

Lemma code_chr : forall z, 0 <= z < 256 -> code (chr z) = z.
Proof.
  intros z Hz. unfold chr. rewrite code_spec, N_ascii_embedding.
  - now rewrite Z2N.id by lia.
  - change 256%N with (Z.to_N 256). apply Z2N.inj_lt; lia.
Qed.

(** every character-class test is a comparison on [code]: after [cls], facts about classes are linear arithmetic.
    With ZifyBool loaded [lia] splits on every hypothesis [b = true] whose [b] it cannot read (a [forallb], a
    [ctok_ok_b]), doubling its work each time: where such hypotheses are around, [clear - H] comes first. *)
Ltac cls :=
  unfold is_numch, is_digit_or_comma, is_alpha, is_digit, is_lower, is_upper, is_blank, is_comma, is_dot,
         is_hyphen, is_colon, is_slash, is_newline, digit_val in *.

Lemma c_colon_code : code c_colon = 58. Proof. reflexivity. Qed.
Lemma c_hyphen_code : code c_hyphen = 45. Proof. reflexivity. Qed.
Lemma c_dot_code : code c_dot = 46. Proof. reflexivity. Qed.
Lemma c_comma_code : code c_comma = 44. Proof. reflexivity. Qed.
Lemma c_slash_code : code c_slash = 47. Proof. reflexivity. Qed.

Lemma is_hyphen_eq : forall c, is_hyphen c = true -> c = c_hyphen.
Proof. intros c H. apply code_inj. rewrite c_hyphen_code. cls. lia. Qed.
Lemma is_dot_eq : forall c, is_dot c = true -> c = c_dot.
Proof. intros c H. apply code_inj. rewrite c_dot_code. cls. lia. Qed.
Lemma is_colon_eq : forall c, is_colon c = true -> c = c_colon.
Proof. intros c H. apply code_inj. rewrite c_colon_code. cls. lia. Qed.

Lemma digit_char_code : forall d, 0 <= d < 10 -> code (digit_char d) = 48 + d.
Proof. intros d Hd. unfold digit_char. apply code_chr. lia. Qed.

Lemma digit_val_digit_char : forall d, 0 <= d < 10 -> digit_val (digit_char d) = d.
Proof. intros. unfold digit_val. rewrite digit_char_code; lia. Qed.

Lemma is_digit_digit_char : forall d, 0 <= d < 10 -> is_digit (digit_char d) = true.
Proof. intros. unfold is_digit. rewrite digit_char_code; lia. Qed.

Definition stops {A} (p : A -> bool) (l : list A) : Prop :=
  match l with [] => True | x :: _ => p x = false end.

(** [l = take_while p l ++ drop_while p l] is a split into a run of [p] and a rest on which [p] stops ... *)
Lemma take_drop_while : forall {A} (p : A -> bool) l, take_while p l ++ drop_while p l = l.
Proof. induction l as [|x l IH]; simpl; [reflexivity|]. destruct (p x); simpl; [now rewrite IH|reflexivity]. Qed.

Lemma take_while_forallb : forall {A} (p : A -> bool) l, forallb p (take_while p l) = true.
Proof. induction l as [|x l IH]; simpl; [reflexivity|]. destruct (p x) eqn:E; simpl; [now rewrite E|reflexivity]. Qed.

Lemma stops_drop_while : forall {A} (p : A -> bool) l, stops p (drop_while p l).
Proof. induction l as [|x l IH]; simpl; [exact I|]. destruct (p x) eqn:E; [exact IH|exact E]. Qed.

(** ... and the only such split *)
Lemma span_app : forall {A} (p : A -> bool) a b, forallb p a = true -> stops p b ->
  take_while p (a ++ b) = a /\ drop_while p (a ++ b) = b.
Proof.
  induction a as [|x a IH]; simpl; intros b Ha Hb.
  - destruct b; simpl in *; [|rewrite Hb]; now split.
  - apply andb_true_iff in Ha as [-> Ha]. destruct (IH b Ha Hb) as [-> ->]. now split.
Qed.

Lemma take_while_app : forall {A} (p : A -> bool) a b,
  forallb p a = true -> stops p b -> take_while p (a ++ b) = a.
Proof. intros. now apply span_app. Qed.

Lemma drop_while_app : forall {A} (p : A -> bool) a b,
  forallb p a = true -> stops p b -> drop_while p (a ++ b) = b.
Proof. intros. now apply span_app. Qed.

Lemma take_while_all : forall {A} (p : A -> bool) a, forallb p a = true -> take_while p a = a.
Proof. intros. rewrite <- (app_nil_r a) at 1. now apply take_while_app. Qed.

Lemma drop_while_all : forall {A} (p : A -> bool) a, forallb p a = true -> drop_while p a = [].
Proof. intros. rewrite <- (app_nil_r a) at 1. now apply drop_while_app. Qed.

Lemma take_while_app_keep : forall {A} (p : A -> bool) a b,
  forallb p a = true -> take_while p (a ++ b) = a ++ take_while p b.
Proof.
  induction a as [|x a IH]; simpl; intros b H; [reflexivity|].
  apply andb_true_iff in H as [-> H]. now rewrite IH.
Qed.

Lemma forallb_impl : forall {A} (p q : A -> bool) l,
  (forall x, p x = true -> q x = true) -> forallb p l = true -> forallb q l = true.
Proof. intros A p q l H. rewrite !forallb_forall. auto. Qed.

(** one step of the decimal reader: [digits_val] is [fold_left dstep] from 0 *)
Definition dstep (a : Z) (c : ascii) : Z := 10 * a + digit_val c.

(** reading the printed digits from 0 is reading the accumulator from [z]: the printer peels off
    the last digit of [z], the reader puts it back *)
Lemma dec_fuel_read : forall n z acc, 0 <= z < 10 ^ (Z.of_nat n + 1) ->
  fold_left dstep (dec_fuel n z acc) 0 = fold_left dstep acc z.
Proof.
  assert (D : forall z acc, 0 <= z < 10 -> fold_left dstep (digit_char z :: acc) 0 = fold_left dstep acc z).
  { intros z acc Hz. cbn [fold_left]. unfold dstep at 2. now rewrite digit_val_digit_char. }
  induction n as [|n IH]; intros z acc Hz; cbn [dec_fuel].
  - rewrite Z.mod_small by (simpl in Hz; lia). apply D. simpl in Hz. lia.
  - destruct (z <? 10) eqn:E; [apply D; lia|].
    rewrite Nat2Z.inj_succ, Z.add_succ_l, Z.pow_succ_r in Hz by lia.
    rewrite IH by (Z.to_euclidean_division_equations; lia). cbn [fold_left]. unfold dstep at 2.
    rewrite digit_val_digit_char by (apply Z.mod_pos_bound; lia).
    f_equal. symmetry. apply Z.div_mod. discriminate.
Qed.

Lemma dec_fuel_digits : forall n z acc, 0 <= z ->
  forallb is_digit (dec_fuel n z acc) = forallb is_digit acc.
Proof.
  induction n as [|n IH]; intros z acc Hz; cbn [dec_fuel]; pose proof (Z.mod_pos_bound z 10 eq_refl).
  - cbn [forallb]. now rewrite is_digit_digit_char.
  - destruct (z <? 10) eqn:E; [cbn [forallb]; now rewrite is_digit_digit_char by lia|].
    rewrite IH by (apply Z.div_pos; lia). cbn [forallb]. now rewrite is_digit_digit_char.
Qed.

Lemma dec_fuel_nonempty : forall n z acc, dec_fuel n z acc <> [].
Proof. induction n as [|n IH]; intros z acc; simpl; [discriminate|]. destruct (z <? 10); [discriminate|apply IH]. Qed.

Lemma log2_fuel_enough : forall z, 0 <= z -> z < 10 ^ (Z.of_nat (Z.to_nat (Z.log2 z)) + 1).
Proof.
  intros z Hz. rewrite Z2Nat.id by apply Z.log2_nonneg.
  destruct (Z.eq_dec z 0) as [->|Hn]; [reflexivity|].
  pose proof (Z.log2_spec z ltac:(lia)) as [_ H2].
  eapply Z.lt_le_trans; [exact H2|].
  replace (Z.succ (Z.log2 z)) with (Z.log2 z + 1) by lia.
  apply Z.pow_le_mono_l. lia.
Qed.

(** int(str(z)) = z *)
Lemma digits_val_dec : forall z, 0 <= z -> digits_val (dec z) = z.
Proof. intros z Hz. apply (dec_fuel_read _ z []). split; [lia|now apply log2_fuel_enough]. Qed.

Lemma dec_digits : forall z, 0 <= z -> forallb is_digit (dec z) = true.
Proof. intros. unfold dec. now rewrite dec_fuel_digits. Qed.

Lemma dec_nonempty : forall z, dec z <> [].
Proof. intros. apply dec_fuel_nonempty. Qed.

(** the classes on which the runs of str.strip and of the split at ":" stop *)
Definition nonblank (c : ascii) : bool := negb (is_blank c).
Definition notcolon (c : ascii) : bool := negb (is_colon c).

Lemma strip_id : forall s, stops is_blank s -> stops is_blank (rev s) -> strip s = s.
Proof.
  intros s H1 H2. unfold strip, rstrip, lstrip.
  replace (drop_while is_blank s) with s by (destruct s; simpl in *; now rewrite ?H1).
  replace (drop_while is_blank (rev s)) with (rev s) by (destruct (rev s); simpl in *; now rewrite ?H2).
  apply rev_involutive.
Qed.

Lemma strip_nonblank : forall s, forallb nonblank s = true -> strip s = s.
Proof.
  intros s H. assert (E : forall l, forallb nonblank l = true -> stops is_blank l).
  { intros [|c l] Hl; simpl in *; [exact I|]. apply andb_true_iff in Hl as [Hc _]. now apply negb_true_iff. }
  apply strip_id; apply E; [assumption|]. rewrite forallb_forall in *. intros x Hx. apply H. now apply in_rev.
Qed.

Lemma strip_blank : forall w, forallb is_blank w = true -> strip w = [].
Proof. intros w H. unfold strip, lstrip. now rewrite drop_while_all. Qed.

Lemma drop_while_snoc_stop : forall (p : ascii -> bool) a h, p h = false ->
  drop_while p (a ++ [h]) = drop_while p a ++ [h].
Proof.
  induction a as [|x a IH]; simpl; intros h H; [now rewrite H|].
  destruct (p x); [now apply IH|reflexivity].
Qed.

Lemma strip_ends : forall s, stops is_blank (strip s) /\ stops is_blank (rev (strip s)).
Proof.
  intros s. unfold strip, rstrip, lstrip. rewrite rev_involutive.
  split; [|apply stops_drop_while].
  pose proof (stops_drop_while is_blank s) as Hh.
  destruct (drop_while is_blank s) as [|h l]; [exact I|].
  change (rev (h :: l)) with (rev l ++ [h]).
  rewrite drop_while_snoc_stop by assumption. now rewrite rev_app_distr.
Qed.

Lemma forallb_drop_while : forall {A} (p q : A -> bool) l, forallb q l = true -> forallb q (drop_while p l) = true.
Proof.
  induction l as [|x l IH]; simpl; intros H; [reflexivity|].
  destruct (p x); [apply andb_true_iff in H as [_ H]; auto|exact H].
Qed.

Lemma forallb_rev : forall {A} (q : A -> bool) l, forallb q l = true -> forallb q (rev l) = true.
Proof. intros A q l. rewrite !forallb_forall. intros H x Hx. apply H. now apply in_rev. Qed.

Lemma strip_forallb : forall (q : ascii -> bool) s, forallb q s = true -> forallb q (strip s) = true.
Proof.
  intros q s H. unfold strip, rstrip, lstrip.
  apply forallb_rev, forallb_drop_while, forallb_rev, forallb_drop_while, H.
Qed.

(** a chromosome name that parse_region_string returns unchanged: non-empty, no colon, no blank at either end *)
Definition name_ok_b (name : str) : bool :=
  negb (is_nil name) && forallb notcolon name
  && nonblank (hd c_colon name) && nonblank (last name c_colon).

Lemma name_ok_inv : forall name, name_ok_b name = true ->
  name <> [] /\ forallb notcolon name = true /\ strip name = name.
Proof.
  intros name H. unfold name_ok_b in H. rewrite !andb_true_iff, !negb_true_iff in H.
  destruct H as [[[Hn Hc] Hh] Hl]. destruct name as [|c name]; [discriminate|].
  apply negb_true_iff in Hh, Hl.
  repeat split; [discriminate|assumption|]. apply strip_id; [exact Hh|].
  rewrite (app_removelast_last c_colon (l := c :: name)), rev_app_distr by discriminate. exact Hl.
Qed.

Lemma split_colon_unfold : forall s,
  split_colon s = take_while notcolon s ::
                  match drop_while notcolon s with [] => [] | _ :: r => split_colon r end.
Proof.
  induction s as [|c s IH]; [reflexivity|].
  cbn [split_colon take_while drop_while]. unfold notcolon at 1 3.
  destruct (is_colon c); cbn [negb]; [reflexivity|]. now rewrite IH.
Qed.

(** only the text before the first colon (the name) and between the first and the second (the coordinates)
    is ever looked at *)
Lemma parse_region_string_eq : forall s,
  parse_region_string s =
  let chrom := strip (take_while notcolon s) in
  if is_nil chrom then None
  else match drop_while notcolon s with
       | [] => Some (chrom, None, None)
       | _ :: r => match expect (tokenize (take_while notcolon r)) with
                   | None => None
                   | Some (a, ob) => Some (chrom, Some a, ob)
                   end
       end.
Proof.
  intros s. unfold parse_region_string. rewrite split_colon_unfold.
  destruct (drop_while notcolon s) as [|x r]; [reflexivity|]. now rewrite split_colon_unfold.
Qed.

(** what follows the coordinate text: nothing, or a second colon and anything *)
Definition colon_tail (j : str) : Prop := match j with [] => True | x :: _ => is_colon x = true end.

Lemma colon_tail_stops : forall j, colon_tail j -> stops notcolon j.
Proof. intros [|x j] H; simpl in *; [exact I|]. unfold notcolon. now rewrite H. Qed.

Lemma colon_tail_drop : forall r, colon_tail (drop_while notcolon r).
Proof.
  intros r. pose proof (stops_drop_while notcolon r) as S.
  destruct (drop_while notcolon r); [exact I|]. now apply negb_false_iff.
Qed.

Lemma parse_region_string_bare_gen : forall s, forallb notcolon s = true ->
  parse_region_string s = if is_nil (strip s) then None else Some (strip s, None, None).
Proof. intros s H. now rewrite parse_region_string_eq, take_while_all, drop_while_all. Qed.

Lemma parse_region_string_colon_gen : forall name rest,
  forallb notcolon name = true ->
  parse_region_string (name ++ c_colon :: rest) =
  if is_nil (strip name) then None
  else match expect (tokenize (take_while notcolon rest)) with
       | None => None
       | Some (a, ob) => Some (strip name, Some a, ob)
       end.
Proof.
  intros name rest Hc. rewrite parse_region_string_eq.
  now destruct (span_app notcolon name (c_colon :: rest) Hc eq_refl) as [-> ->].
Qed.

Lemma parse_region_string_pieces : forall n0 body tail,
  forallb notcolon n0 = true -> forallb notcolon body = true -> colon_tail tail ->
  parse_region_string (n0 ++ c_colon :: body ++ tail) =
  if is_nil (strip n0) then None
  else match expect (tokenize body) with
       | None => None
       | Some (a, ob) => Some (strip n0, Some a, ob)
       end.
Proof.
  intros n0 body tail Hn Hb Ht. rewrite parse_region_string_colon_gen by assumption.
  now rewrite take_while_app by auto using colon_tail_stops.
Qed.

Lemma parse_region_string_pieces_inv : forall s c a ob,
  parse_region_string s = Some (c, Some a, ob) ->
  exists n0 body tail,
    s = n0 ++ c_colon :: body ++ tail /\ forallb notcolon n0 = true /\ forallb notcolon body = true /\
    colon_tail tail /\ strip n0 = c /\ c <> [] /\ expect (tokenize body) = Some (a, ob).
Proof.
  intros s c a ob. rewrite parse_region_string_eq. cbv zeta.
  pose proof (take_drop_while notcolon s) as TD. pose proof (colon_tail_drop s) as CT.
  destruct (strip (take_while notcolon s)) as [|c0 c'] eqn:N; [discriminate|]. cbn [is_nil].
  destruct (drop_while notcolon s) as [|x r]; [discriminate|]. apply is_colon_eq in CT. subst x.
  destruct (expect (tokenize (take_while notcolon r))) as [[a0 ob0]|] eqn:X; [|discriminate].
  intros [= <- -> ->].
  exists (take_while notcolon s), (take_while notcolon r), (drop_while notcolon r).
  rewrite take_drop_while. repeat split; auto using take_while_forallb, colon_tail_drop. discriminate.
Qed.

Lemma parse_region_string_bare : forall name,
  name_ok_b name = true -> parse_region_string name = Some (name, None, None).
Proof.
  intros name H. apply name_ok_inv in H as (Hn & Hc & Hs).
  rewrite parse_region_string_bare_gen, Hs by assumption. now destruct name.
Qed.

Lemma remove_commas_app : forall a b, remove_commas (a ++ b) = remove_commas a ++ remove_commas b.
Proof. intros. apply filter_app. Qed.

Lemma remove_commas_id : forall s, forallb (fun c => negb (is_comma c)) s = true -> remove_commas s = s.
Proof.
  induction s as [|c s IH]; simpl; intros H; [reflexivity|].
  apply andb_true_iff in H as [-> H]. now rewrite IH.
Qed.

Lemma remove_commas_digits : forall t,
  forallb is_digit_or_comma t = true -> forallb is_digit (remove_commas t) = true.
Proof.
  induction t as [|c t IH]; simpl; intros H; [reflexivity|].
  apply andb_true_iff in H as [Hc H]. destruct (is_comma c) eqn:E; simpl; [auto|].
  unfold is_digit_or_comma in Hc. rewrite E, orb_false_r in Hc. now rewrite Hc, IH.
Qed.

Lemma digits_nocomma : forall s, forallb is_digit s = true -> forallb (fun c => negb (is_comma c)) s = true.
Proof. intros s. apply forallb_impl. intros x H. cls. lia. Qed.
Lemma alpha_nocomma : forall s, forallb is_alpha s = true -> forallb (fun c => negb (is_comma c)) s = true.
Proof. intros s. apply forallb_impl. intros x H. cls. lia. Qed.
Lemma digits_numch : forall s, forallb is_digit s = true -> forallb is_numch s = true.
Proof. intros s. apply forallb_impl. unfold is_numch. now intros x ->. Qed.
Lemma alpha_nonnum : forall s, forallb is_alpha s = true -> forallb (fun c => negb (is_numch c)) s = true.
Proof. intros s. apply forallb_impl. intros x H. cls. lia. Qed.

Lemma forallb_negb_existsb : forall (p : ascii -> bool) l,
  forallb (fun c => negb (p c)) l = true -> existsb p l = false.
Proof.
  induction l as [|c l IH]; simpl; intros H; [reflexivity|].
  apply andb_true_iff in H as [Hc H]. rewrite IH by assumption. now destruct (p c).
Qed.

Lemma to_upper_alpha_nonblank : forall s, forallb is_alpha s = true -> forallb nonblank (map to_upper s) = true.
Proof.
  intros s H. rewrite forallb_forall in *. intros y Hy. apply in_map_iff in Hy as (c & <- & Hc).
  apply H in Hc. unfold nonblank, to_upper. destruct (is_lower c) eqn:E.
  - pose proof (code_range c). unfold is_blank. rewrite code_chr by (cls; lia). cls. lia.
  - cls. lia.
Qed.

(** a comma-free numeric run followed by letters: the run is the value, the letters are the unit *)
Lemma parse_humanized_run : forall num al,
  forallb is_numch num = true -> forallb (fun c => negb (is_comma c)) num = true -> forallb is_alpha al = true ->
  parse_humanized (num ++ al) =
  if is_nil num then None
  else if is_nil al then parse_int num
  else match parse_fraction num, unit_mult (map to_upper al) with
       | Some (n, k), Some m => Some (n * m / 10 ^ k)
       | _, _ => None
       end.
Proof.
  intros num al Hnum Hnc Hal. unfold parse_humanized.
  rewrite remove_commas_app, !remove_commas_id by auto using alpha_nocomma.
  destruct num as [|d num']; [now rewrite drop_while_all by now apply alpha_nonnum|].
  assert (Hd : drop_while (fun c => negb (is_numch c)) ((d :: num') ++ al) = (d :: num') ++ al).
  { simpl in *. apply andb_true_iff in Hnum as [-> _]. reflexivity. }
  assert (Hstop : stops is_numch al).
  { destruct al as [|x al']; [exact I|]. simpl in *. apply andb_true_iff in Hal as [Hx _]. clear - Hx. cls. lia. }
  rewrite Hd. destruct (span_app is_numch _ al Hnum Hstop) as [-> ->].
  rewrite forallb_negb_existsb by now apply alpha_nonnum.
  destruct al as [|x al']; [reflexivity|].
  rewrite strip_nonblank by now apply to_upper_alpha_nonblank.
  cbn [is_nil]. destruct (parse_fraction (d :: num')) as [[n k]|]; [|reflexivity].
  now destruct (unit_mult (map to_upper (x :: al'))).
Qed.

Lemma parse_humanized_commas : forall s, parse_humanized (remove_commas s) = parse_humanized s.
Proof.
  intros s. unfold parse_humanized. rewrite (remove_commas_id (remove_commas s)); [reflexivity|].
  unfold remove_commas. apply forallb_forall. intros x Hx. now apply filter_In in Hx.
Qed.

Lemma parse_fraction_digits : forall ds, forallb is_digit ds = true ->
  parse_fraction ds = if is_nil ds then None else Some (digits_val ds, 0).
Proof. intros ds H. unfold parse_fraction. now rewrite take_while_all, drop_while_all. Qed.

Lemma parse_fraction_dot : forall ipd fd, forallb is_digit ipd = true -> forallb is_digit fd = true ->
  parse_fraction (ipd ++ c_dot :: fd) =
  if is_nil ipd && is_nil fd then None else Some (digits_val ipd * 10 ^ zlen fd + digits_val fd, zlen fd).
Proof.
  intros ipd fd Hi Hf. unfold parse_fraction.
  destruct (span_app is_digit ipd (c_dot :: fd) Hi eq_refl) as [-> ->].
  change (is_dot c_dot) with true. now rewrite take_while_all, drop_while_all.
Qed.

(** what a COORD token  ip [. fd] al  evaluates to; ipd = ip without its commas *)
Definition coord_value (ipd : str) (hasdot : bool) (fd al : str) : option Z :=
  if is_nil al then
    (if hasdot then None else if is_nil ipd then None else Some (digits_val ipd))
  else if is_nil ipd && (negb hasdot || is_nil fd) then None
  else match unit_mult (map to_upper al) with
       | None => None
       | Some m => Some ((digits_val ipd * 10 ^ zlen fd + digits_val fd) * m / 10 ^ zlen fd)
       end.

Definition frac_part (hasdot : bool) (fd : str) : str := if hasdot then c_dot :: fd else [].

Lemma parse_humanized_coord : forall ip hasdot fd al,
  forallb is_digit_or_comma ip = true -> forallb is_digit fd = true -> forallb is_alpha al = true ->
  (hasdot = false -> fd = []) ->
  parse_humanized (ip ++ frac_part hasdot fd ++ al) = coord_value (remove_commas ip) hasdot fd al.
Proof.
  intros ip hasdot fd al Hip Hfd Hal Hnd.
  pose proof (remove_commas_digits _ Hip) as Hd. set (ipd := remove_commas ip) in *.
  assert (Hfn : forallb (fun c => negb (is_comma c)) (frac_part hasdot fd) = true)
    by (destruct hasdot; [apply (digits_nocomma _ Hfd)|reflexivity]).
  assert (Hfm : forallb is_numch (frac_part hasdot fd) = true)
    by (destruct hasdot; [apply (digits_numch _ Hfd)|reflexivity]).
  rewrite <- parse_humanized_commas, !remove_commas_app, (remove_commas_id _ Hfn),
    (remove_commas_id al), app_assoc by now apply alpha_nocomma.
  fold ipd. rewrite parse_humanized_run; try assumption;
    [|rewrite forallb_app, Hfm; now rewrite digits_numch|rewrite forallb_app, Hfn; now rewrite digits_nocomma].
  unfold coord_value. destruct hasdot; cbn [frac_part negb orb].
  - rewrite parse_fraction_dot by assumption.
    replace (is_nil (ipd ++ c_dot :: fd)) with false by now destruct ipd.
    destruct al; [|now destruct (is_nil ipd && is_nil fd)].
    unfold parse_int. rewrite forallb_app. cbn [forallb]. change (is_digit c_dot) with false.
    rewrite andb_false_r. now destruct (ipd ++ c_dot :: fd).
  - rewrite (Hnd eq_refl), app_nil_r, parse_fraction_digits by assumption. unfold parse_int. rewrite Hd.
    destruct (is_nil ipd), al; try reflexivity. cbn [is_nil andb].
    destruct (unit_mult (map to_upper (a :: al))); [|reflexivity].
    change (zlen (@nil ascii)) with 0. change (digits_val []) with 0. do 2 f_equal. ring.
Qed.

(** a COORD token in parts:  ip = [0-9,]+ ,  optional "." fd with fd = [0-9]* ,  al = [a-zA-Z]*  *)
Record ctok := mk_ctok { t_ip : str; t_dot : bool; t_fd : str; t_al : str }.

Definition ctok_ok_b (t : ctok) : bool :=
  negb (is_nil (t_ip t)) && forallb is_digit_or_comma (t_ip t) && forallb is_digit (t_fd t)
  && forallb is_alpha (t_al t) && (t_dot t || is_nil (t_fd t)).

Definition ctok_str (t : ctok) : str := t_ip t ++ frac_part (t_dot t) (t_fd t) ++ t_al t.
Definition ctok_val (t : ctok) : option Z := coord_value (remove_commas (t_ip t)) (t_dot t) (t_fd t) (t_al t).

Lemma ctok_ok_inv : forall t, ctok_ok_b t = true ->
  t_ip t <> [] /\ forallb is_digit_or_comma (t_ip t) = true /\ forallb is_digit (t_fd t) = true /\
  forallb is_alpha (t_al t) = true /\ (t_dot t = false -> t_fd t = []).
Proof.
  intros [ip d fd al]. unfold ctok_ok_b. simpl. rewrite !andb_true_iff.
  intros [[[[H1 H2] H3] H4] H5]. repeat split; try assumption.
  - now destruct ip.
  - intros ->. now destruct fd.
Qed.

Lemma parse_humanized_ctok : forall t, ctok_ok_b t = true -> parse_humanized (ctok_str t) = ctok_val t.
Proof.
  intros t H. apply ctok_ok_inv in H as (_ & H2 & H3 & H4 & H5). now apply parse_humanized_coord.
Qed.

(** the next character cannot extend a coordinate token *)
Definition tok_end (r : str) : Prop :=
  match r with
  | [] => True
  | x :: _ => is_alpha x = false /\ is_digit x = false /\ is_comma x = false /\ is_dot x = false
  end.

(** maximal munch: the character after the token [t] cannot extend it *)
Definition munch_end (t : ctok) (r : str) : Prop :=
  match r with
  | [] => True
  | x :: _ => is_alpha x = false /\
              (t_al t = [] -> if t_dot t then is_digit x = false
                              else is_digit x = false /\ is_comma x = false /\ is_dot x = false)
  end.

Lemma tok_end_munch : forall t r, tok_end r -> munch_end t r.
Proof. intros t [|x r] H; simpl in *; [exact I|]. destruct H as (A & B & C & D). split; [assumption|]. intros _. destruct (t_dot t); auto. Qed.

Lemma tok_end_hyphen : forall w r, forallb is_blank w = true -> tok_end (w ++ c_hyphen :: r).
Proof.
  intros [|c w] r H; simpl in *; [repeat split; reflexivity|].
  apply andb_true_iff in H as [Hc _]. cls. lia.
Qed.

Lemma match_at_nil : match_at [] = None.
Proof. reflexivity. Qed.

Lemma match_at_hyphen : forall ws r,
  forallb is_blank ws = true -> match_at (ws ++ c_hyphen :: r) = Some ((HYPHEN, [c_hyphen]), r).
Proof. intros ws r Hws. unfold match_at. now rewrite drop_while_app. Qed.

Lemma last_non_newline_none : forall s, last_non_newline s = None <-> forallb is_newline s = true.
Proof.
  induction s as [|c s IH]; simpl; [tauto|].
  destruct (last_non_newline s) as [[c' r']|].
  - split; [discriminate|]. rewrite andb_true_iff. intros [_ H]. now apply IH in H.
  - destruct (is_newline c); [tauto|split; discriminate].
Qed.

Lemma match_at_newlines : forall nl, forallb is_newline nl = true <-> match_at nl = None.
Proof.
  intros nl. unfold match_at. split.
  - intros H. rewrite drop_while_all by (revert H; apply forallb_impl; intros x Hx; cls; lia).
    apply last_non_newline_none in H. now rewrite H.
  - destruct (drop_while is_blank nl) as [|c r'].
    + destruct (last_non_newline nl) as [[c0 r0]|] eqn:L; [discriminate|]. intros _. now apply last_non_newline_none.
    + destruct (is_hyphen c); [discriminate|]. destruct (is_digit_or_comma c); discriminate.
Qed.

(** blanks, then the three runs of a COORD token, each ended by a character on which its class stops *)
Lemma match_at_coord : forall ws ip hasdot fd al r,
  forallb is_blank ws = true -> ip <> [] -> forallb is_digit_or_comma ip = true ->
  forallb is_digit fd = true -> forallb is_alpha al = true ->
  stops is_digit_or_comma (frac_part hasdot fd ++ al ++ r) ->
  (if hasdot then stops is_digit (al ++ r) else stops is_dot (al ++ r)) ->
  stops is_alpha r ->
  match_at (ws ++ ip ++ frac_part hasdot fd ++ al ++ r) = Some ((COORD, ip ++ frac_part hasdot fd ++ al), r).
Proof.
  intros ws ip hasdot fd al r Hws Hne Hip Hfd Hal H1 H2 H3.
  destruct ip as [|c ip']; [congruence|].
  pose proof Hip as Hc. simpl in Hc. apply andb_true_iff in Hc as [Hc _].
  assert (is_blank c = false /\ is_hyphen c = false) as [Hb Hh] by (clear - Hc; cls; lia).
  unfold match_at. rewrite drop_while_app; [|assumption|exact Hb].
  cbn [app]. cbv iota beta. rewrite Hh, Hc.
  change (c :: ip' ++ ?x) with ((c :: ip') ++ x).
  destruct (span_app _ _ _ Hip H1) as [-> ->].
  destruct hasdot; cbn [frac_part app] in *.
  - change (is_dot c_dot) with true. cbv iota.
    destruct (span_app _ _ _ Hfd H2) as [-> ->]. now destruct (span_app _ _ _ Hal H3) as [-> ->].
  - destruct (span_app _ _ _ Hal H3) as [E1 E2].
    destruct (al ++ r) as [|d q]; [now rewrite <- E1, <- E2|].
    simpl in H2. rewrite H2. now rewrite E1, E2.
Qed.

Lemma match_at_ctok_munch : forall ws t r,
  forallb is_blank ws = true -> ctok_ok_b t = true -> munch_end t r ->
  match_at (ws ++ ctok_str t ++ r) = Some ((COORD, ctok_str t), r).
Proof.
  intros ws [ip hasdot fd al] r Hws Ht Hr.
  apply ctok_ok_inv in Ht as (Hne & Hip & Hfd & Hal & Hnd). simpl in *.
  unfold ctok_str. simpl. rewrite <- !app_assoc.
  assert (Ha : al <> [] -> stops is_digit_or_comma (al ++ r) /\ stops is_digit (al ++ r) /\ stops is_dot (al ++ r)).
  { destruct al as [|x al']; [congruence|]. intros _. simpl in *. apply andb_true_iff in Hal as [Hx _]. clear - Hx. cls. lia. }
  apply match_at_coord; try assumption.
  - destruct hasdot; [reflexivity|]. destruct al; [|now apply Ha].
    destruct r; simpl in *; [exact I|]. destruct Hr as [_ Hd]. unfold is_digit_or_comma.
    now destruct (Hd eq_refl) as (-> & -> & _).
  - destruct al; [|destruct hasdot; now apply Ha].
    destruct r; simpl in *; [now destruct hasdot|]. destruct Hr as [_ Hd]. specialize (Hd eq_refl).
    destruct hasdot; tauto.
  - destruct r; simpl in *; tauto.
Qed.

Lemma last_non_newline_some : forall s c rest,
  last_non_newline s = Some (c, rest) -> exists pre, s = pre ++ c :: rest.
Proof.
  induction s as [|a s IH]; simpl; intros c rest H; [discriminate|].
  destruct (last_non_newline s) as [[c' r']|].
  - injection H as -> ->. destruct (IH _ _ eq_refl) as [pre ->]. now exists (a :: pre).
  - destruct (is_newline a); [discriminate|]. injection H as -> ->. now exists [].
Qed.

(** every text that starts with a digit or comma begins with a COORD token, taken by maximal munch:
    the letters, once the numeric part  ip [. fd]  has been read and [r2] is what follows ... *)
Lemma lex_alpha : forall ip hasdot fd r2,
  ip <> [] -> forallb is_digit_or_comma ip = true -> forallb is_digit fd = true -> (hasdot = false -> fd = []) ->
  (if hasdot then stops is_digit r2 else stops is_digit_or_comma r2 /\ stops is_dot r2) ->
  exists t rest, ctok_ok_b t = true /\ ip ++ frac_part hasdot fd ++ r2 = ctok_str t ++ rest /\ munch_end t rest.
Proof.
  intros ip hasdot fd r2 Hne Hip Hfd Hnd Hst.
  exists (mk_ctok ip hasdot fd (take_while is_alpha r2)), (drop_while is_alpha r2). split; [|split].
  - unfold ctok_ok_b. cbn. rewrite Hip, Hfd, take_while_forallb.
    destruct ip; [congruence|]. destruct hasdot; [reflexivity|]. now rewrite Hnd.
  - unfold ctok_str. cbn. now rewrite <- !app_assoc, take_drop_while.
  - pose proof (stops_drop_while is_alpha r2) as Sa. pose proof (take_drop_while is_alpha r2) as TD.
    destruct (drop_while is_alpha r2) as [|y q]; [exact I|]. split; [exact Sa|]. cbn. intros E.
    rewrite E in TD. subst r2. destruct hasdot; cbn in Hst; [assumption|].
    unfold is_digit_or_comma in Hst. rewrite orb_false_iff in Hst. tauto.
Qed.

(** ... and the numeric part *)
Lemma coord_prefix : forall c r', is_digit_or_comma c = true ->
  exists t rest, ctok_ok_b t = true /\ c :: r' = ctok_str t ++ rest /\ munch_end t rest.
Proof.
  intros c r' Hdc.
  pose proof (take_drop_while is_digit_or_comma (c :: r')) as TD.
  pose proof (take_while_forallb is_digit_or_comma (c :: r')) as TB.
  pose proof (stops_drop_while is_digit_or_comma (c :: r')) as ST.
  assert (Hne : take_while is_digit_or_comma (c :: r') <> []) by (cbn; now rewrite Hdc).
  set (ip := take_while is_digit_or_comma (c :: r')) in *. rewrite <- TD.
  destruct (drop_while is_digit_or_comma (c :: r')) as [|d r1'].
  - apply (lex_alpha ip false [] []); cbn; auto.
  - destruct (is_dot d) eqn:Hd.
    + apply is_dot_eq in Hd. subst d. rewrite <- (take_drop_while is_digit r1').
      apply (lex_alpha ip true (take_while is_digit r1') (drop_while is_digit r1'));
        auto using take_while_forallb, stops_drop_while. discriminate.
    + apply (lex_alpha ip false [] (d :: r1')); cbn; auto.
Qed.

Lemma match_at_inv : forall s ty x rest, match_at s = Some ((ty, x), rest) ->
  match ty with
  | HYPHEN => exists ws, forallb is_blank ws = true /\ x = [c_hyphen] /\ s = ws ++ c_hyphen :: rest
  | COORD => exists ws t, forallb is_blank ws = true /\ ctok_ok_b t = true /\ x = ctok_str t /\
                          s = ws ++ ctok_str t ++ rest /\ munch_end t rest
  | OTHER => exists pre, pre <> [] /\ s = pre ++ rest
  end.
Proof.
  intros s ty x rest H.
  pose proof (take_drop_while is_blank s) as TD. pose proof (take_while_forallb is_blank s) as TB.
  pose proof (stops_drop_while is_blank s) as SB.
  set (ws := take_while is_blank s) in *.
  destruct (drop_while is_blank s) as [|c r'] eqn:E.
  - unfold match_at in H. rewrite E in H.
    destruct (last_non_newline s) as [[c0 r0]|] eqn:L; [|discriminate]. injection H as <- <- <-.
    apply last_non_newline_some in L as [pre ->]. exists (pre ++ [c0]). rewrite <- app_assoc.
    split; [now destruct pre|reflexivity].
  - cbn in SB. destruct (is_hyphen c) eqn:Hh; [|destruct (is_digit_or_comma c) eqn:Hdc].
    + apply is_hyphen_eq in Hh. subst c. rewrite <- TD, match_at_hyphen in H by assumption.
      injection H as <- <- <-. now exists ws.
    + destruct (coord_prefix c r' Hdc) as (t & rest' & Hok & Hstr & Hm).
      rewrite <- TD, Hstr, match_at_ctok_munch in H by assumption.
      injection H as <- <- <-. exists ws, t. rewrite <- TD, Hstr. auto.
    + unfold match_at in H. rewrite E, Hh, Hdc in H. injection H as <- <- <-.
      cbn [drop_while]. replace (is_newline c) with false by (clear - SB; cls; lia). cbn [negb].
      exists (ws ++ c :: take_while (fun x => negb (is_newline x)) r').
      rewrite <- app_assoc. cbn [app]. rewrite take_drop_while. split; [now destruct ws|now rewrite TD].
Qed.

Lemma match_at_shrinks : forall s t rest, match_at s = Some (t, rest) -> (length rest < length s)%nat.
Proof.
  intros s [ty x] rest H. apply match_at_inv in H. destruct ty.
  - destruct H as (ws & _ & _ & ->). rewrite app_length. simpl. lia.
  - destruct H as (ws & t & _ & Ht & _ & -> & _). apply ctok_ok_inv in Ht as [Hne _].
    unfold ctok_str. rewrite !app_length. destruct (t_ip t); [congruence|simpl; lia].
  - destruct H as (pre & Hne & ->). rewrite app_length. destruct pre; [congruence|simpl; lia].
Qed.

Lemma tokenize_fuel_enough : forall n m s,
  (length s < n)%nat -> (length s < m)%nat -> tokenize_fuel n s = tokenize_fuel m s.
Proof.
  induction n as [|n IH]; intros m s Hn Hm; [lia|].
  destruct m as [|m]; [lia|]. simpl.
  destruct (match_at s) as [[t rest]|] eqn:E; [|reflexivity].
  apply match_at_shrinks in E. f_equal. apply IH; lia.
Qed.

(** the fuel of [tokenize] is never exhausted: the defining equation of finditer *)
Lemma tokenize_eq : forall s,
  tokenize s = match match_at s with None => [] | Some (t, rest) => t :: tokenize rest end.
Proof.
  intros s. unfold tokenize at 1. simpl.
  destruct (match_at s) as [[t rest]|] eqn:E; [|reflexivity].
  apply match_at_shrinks in E. f_equal. apply tokenize_fuel_enough; lia.
Qed.

Lemma tokenize_start : forall w1 t1 w2 r,
  forallb is_blank w1 = true -> ctok_ok_b t1 = true -> forallb is_blank w2 = true ->
  tokenize (w1 ++ ctok_str t1 ++ w2 ++ c_hyphen :: r) = (COORD, ctok_str t1) :: (HYPHEN, [c_hyphen]) :: tokenize r.
Proof.
  intros w1 t1 w2 r Hw1 Ht1 Hw2.
  rewrite tokenize_eq, match_at_ctok_munch by auto using tok_end_munch, tok_end_hyphen.
  now rewrite tokenize_eq, match_at_hyphen.
Qed.

(** the three tokens the grammar asks for; whatever follows is never requested *)
Lemma expect_tokenize_closed : forall w1 t1 w2 w3 t2 junk,
  forallb is_blank w1 = true -> forallb is_blank w2 = true -> forallb is_blank w3 = true ->
  ctok_ok_b t1 = true -> ctok_ok_b t2 = true -> munch_end t2 junk ->
  expect (tokenize (w1 ++ ctok_str t1 ++ w2 ++ c_hyphen :: w3 ++ ctok_str t2 ++ junk))
  = match ctok_val t1, ctok_val t2 with
    | Some a, Some b => if b <? a then None else Some (a, Some b)
    | _, _ => None
    end.
Proof.
  intros w1 t1 w2 w3 t2 junk Hw1 Hw2 Hw3 Ht1 Ht2 Hj.
  rewrite tokenize_start, tokenize_eq, match_at_ctok_munch by assumption.
  cbn [expect]. rewrite !parse_humanized_ctok by assumption.
  destruct (ctok_val t1); [|reflexivity]. now destruct (ctok_val t2).
Qed.

Lemma expect_tokenize_open : forall w1 t1 w2 nl,
  forallb is_blank w1 = true -> forallb is_blank w2 = true -> forallb is_newline nl = true ->
  ctok_ok_b t1 = true ->
  expect (tokenize (w1 ++ ctok_str t1 ++ w2 ++ c_hyphen :: nl))
  = match ctok_val t1 with Some a => Some (a, None) | None => None end.
Proof.
  intros w1 t1 w2 nl Hw1 Hw2 Hnl Ht1. apply match_at_newlines in Hnl.
  rewrite tokenize_start, tokenize_eq, Hnl by assumption.
  cbn [expect]. rewrite parse_humanized_ctok by assumption. now destruct (ctok_val t1).
Qed.

Lemma expect_tokenize_inv : forall body a ob,
  expect (tokenize body) = Some (a, ob) ->
  exists w1 t1 w2 rest2,
    forallb is_blank w1 = true /\ ctok_ok_b t1 = true /\ forallb is_blank w2 = true /\
    body = w1 ++ ctok_str t1 ++ w2 ++ c_hyphen :: rest2 /\ ctok_val t1 = Some a /\
    match ob with
    | None => forallb is_newline rest2 = true
    | Some b => exists w3 t2 junk,
        forallb is_blank w3 = true /\ ctok_ok_b t2 = true /\ rest2 = w3 ++ ctok_str t2 ++ junk /\
        munch_end t2 junk /\ ctok_val t2 = Some b /\ a <= b
    end.
Proof.
  intros body a ob. rewrite tokenize_eq.
  destruct (match_at body) as [[[[] x1] r1]|] eqn:E1; try discriminate.
  apply match_at_inv in E1 as (w1 & t1 & Hw1 & Ht1 & -> & -> & _).
  cbn [expect]. rewrite parse_humanized_ctok by assumption.
  destruct (ctok_val t1) as [a0|] eqn:V1; [|discriminate].
  rewrite tokenize_eq.
  destruct (match_at r1) as [[[[] x2] r2]|] eqn:E2; try discriminate.
  apply match_at_inv in E2 as (w2 & Hw2 & -> & ->).
  rewrite tokenize_eq.
  destruct (match_at r2) as [[[[] x3] r3]|] eqn:E3; try discriminate.
  - apply match_at_inv in E3 as (w3 & t2 & Hw3 & Ht2 & -> & -> & Hm).
    rewrite parse_humanized_ctok by assumption.
    destruct (ctok_val t2) as [b0|] eqn:V2; [|discriminate].
    destruct (b0 <? a0) eqn:L; [discriminate|]. apply Z.ltb_ge in L. intros [= <- <-].
    exists w1, t1, w2, (w3 ++ ctok_str t2 ++ r3). repeat split; try assumption. now exists w3, t2, r3.
  - intros [= <- <-]. apply match_at_newlines in E3. now exists w1, t1, w2, r2.
Qed.

Lemma expect_needs_hyphen : forall s, expect (tokenize s) <> None -> existsb is_hyphen s = true.
Proof.
  intros s H. destruct (expect (tokenize s)) as [[a ob]|] eqn:E; [|congruence].
  apply expect_tokenize_inv in E as (w1 & t1 & w2 & r & _ & _ & _ & -> & _).
  rewrite !existsb_app. cbn. now rewrite !orb_true_r.
Qed.

Lemma blank_notcolon : forall w, forallb is_blank w = true -> forallb notcolon w = true.
Proof. intros w. apply forallb_impl. intros x H. unfold notcolon. cls. lia. Qed.

Lemma newline_notcolon : forall w, forallb is_newline w = true -> forallb notcolon w = true.
Proof. intros w. apply forallb_impl. intros x H. unfold notcolon. cls. lia. Qed.

Lemma ctok_notcolon : forall t, ctok_ok_b t = true -> forallb notcolon (ctok_str t) = true.
Proof.
  intros t Ht. apply ctok_ok_inv in Ht as (H1 & H2 & H3 & H4 & H5).
  unfold ctok_str. rewrite !forallb_app. repeat (apply andb_true_iff; split).
  - revert H2. clear. apply forallb_impl. intros x H. unfold notcolon. cls. lia.
  - destruct (t_dot t); simpl; [|reflexivity].
    revert H3. clear. apply forallb_impl. intros x H. unfold notcolon. cls. lia.
  - revert H4. clear. apply forallb_impl. intros x H. unfold notcolon. cls. lia.
Qed.

Lemma notcolon_tok : forall w t r, forallb is_blank w = true -> ctok_ok_b t = true ->
  forallb notcolon (w ++ ctok_str t ++ r) = forallb notcolon r.
Proof. intros w t r Hw Ht. now rewrite !forallb_app, blank_notcolon, ctok_notcolon. Qed.

Lemma take_notcolon_hyphen : forall r, take_while notcolon (c_hyphen :: r) = c_hyphen :: take_while notcolon r.
Proof. reflexivity. Qed.

Lemma tok_end_take_notcolon : forall j, tok_end j -> tok_end (take_while notcolon j).
Proof. intros [|x j] H; simpl in *; [exact I|]. destruct (notcolon x); simpl; auto. Qed.

Definition region_result (name : str) (a b : option Z) : option region :=
  match a, b with
  | Some a, Some b => if b <? a then None else Some (name, Some a, Some b)
  | _, _ => None
  end.

(** GRAMMAR, closed range: name ":" [blanks] COORD [blanks] "-" [blanks] COORD junk *)
Theorem region_grammar_closed : forall name w1 t1 w2 w3 t2 junk,
  name_ok_b name = true ->
  forallb is_blank w1 = true -> forallb is_blank w2 = true -> forallb is_blank w3 = true ->
  ctok_ok_b t1 = true -> ctok_ok_b t2 = true -> tok_end junk ->
  parse_region_string (name ++ c_colon :: w1 ++ ctok_str t1 ++ w2 ++ c_hyphen :: w3 ++ ctok_str t2 ++ junk)
  = region_result name (ctok_val t1) (ctok_val t2).
Proof.
  intros name w1 t1 w2 w3 t2 junk Hn Hw1 Hw2 Hw3 Ht1 Ht2 Hj.
  apply name_ok_inv in Hn as (Hne & Hc & Hs).
  rewrite parse_region_string_colon_gen, Hs by assumption.
  rewrite !take_while_app_keep, take_notcolon_hyphen, !take_while_app_keep
    by auto using blank_notcolon, ctok_notcolon.
  rewrite expect_tokenize_closed by auto using tok_end_munch, tok_end_take_notcolon.
  unfold region_result. replace (is_nil name) with false by now destruct name.
  destruct (ctok_val t1) as [a|]; [|reflexivity].
  destruct (ctok_val t2) as [b|]; [|reflexivity]. now destruct (b <? a).
Qed.

(** GRAMMAR, open end: name ":" [blanks] COORD [blanks] "-" [newlines] [":" anything] *)
Theorem region_grammar_open : forall name w1 t1 w2 nl tail,
  name_ok_b name = true ->
  forallb is_blank w1 = true -> forallb is_blank w2 = true -> forallb is_newline nl = true ->
  ctok_ok_b t1 = true -> colon_tail tail ->
  parse_region_string (name ++ c_colon :: w1 ++ ctok_str t1 ++ w2 ++ c_hyphen :: nl ++ tail)
  = match ctok_val t1 with Some a => Some (name, Some a, None) | None => None end.
Proof.
  intros name w1 t1 w2 nl tail Hn Hw1 Hw2 Hnl Ht1 Htl.
  apply name_ok_inv in Hn as (Hne & Hc & Hs).
  rewrite parse_region_string_colon_gen, Hs by assumption.
  rewrite !take_while_app_keep, take_notcolon_hyphen, take_while_app
    by auto using blank_notcolon, ctok_notcolon, newline_notcolon, colon_tail_stops.
  rewrite expect_tokenize_open by assumption.
  destruct name; [congruence|]. now destruct (ctok_val t1).
Qed.

Definition plain_tok (cs : str) : ctok := mk_ctok cs false [] [].

Lemma plain_tok_str : forall cs, ctok_str (plain_tok cs) = cs.
Proof. intros. unfold ctok_str, plain_tok. simpl. now rewrite app_nil_r. Qed.

Lemma plain_tok_ok : forall cs z,
  forallb is_digit_or_comma cs = true -> remove_commas cs = dec z -> ctok_ok_b (plain_tok cs) = true.
Proof.
  intros cs z H E. unfold ctok_ok_b, plain_tok. simpl. rewrite H.
  destruct cs; [|reflexivity]. simpl in E. now destruct (dec_nonempty z).
Qed.

Lemma plain_tok_val : forall cs z, 0 <= z -> remove_commas cs = dec z -> ctok_val (plain_tok cs) = Some z.
Proof.
  intros cs z Hz E. unfold ctok_val, plain_tok, coord_value. simpl. rewrite E, digits_val_dec by assumption.
  pose proof (dec_nonempty z). now destruct (dec z).
Qed.

(** name ":" cs "-" ce  for any placement of commas among the digits of s and of e, ordered or not *)
Lemma parse_commas_gen : forall name s e cs ce,
  name_ok_b name = true -> 0 <= s -> 0 <= e ->
  forallb is_digit_or_comma cs = true -> remove_commas cs = dec s ->
  forallb is_digit_or_comma ce = true -> remove_commas ce = dec e ->
  parse_region_string (name ++ c_colon :: cs ++ c_hyphen :: ce) =
  if e <? s then None else Some (name, Some s, Some e).
Proof.
  intros name s e cs ce Hn Hs He Hcs Es Hce Ee.
  pose proof (region_grammar_closed name [] (plain_tok cs) [] [] (plain_tok ce) [] Hn eq_refl eq_refl eq_refl
                (plain_tok_ok _ _ Hcs Es) (plain_tok_ok _ _ Hce Ee) I) as G.
  rewrite !plain_tok_str, app_nil_r in G. cbn [app] in G.
  now rewrite G, (plain_tok_val cs s), (plain_tok_val ce e).
Qed.

Theorem parse_commas_roundtrip : forall name s e cs ce,
  name_ok_b name = true -> 0 <= s <= e ->
  forallb is_digit_or_comma cs = true -> remove_commas cs = dec s ->
  forallb is_digit_or_comma ce = true -> remove_commas ce = dec e ->
  parse_region_string (name ++ c_colon :: cs ++ c_hyphen :: ce) = Some (name, Some s, Some e).
Proof.
  intros name s e cs ce Hn [Hs Hse] Hcs Es Hce Ee.
  rewrite (parse_commas_gen name s e) by (assumption || now apply (Z.le_trans 0 s)).
  now rewrite (proj2 (Z.ltb_ge e s)).
Qed.

Theorem parse_commas_roundtrip_open : forall name s cs,
  name_ok_b name = true -> 0 <= s ->
  forallb is_digit_or_comma cs = true -> remove_commas cs = dec s ->
  parse_region_string (name ++ c_colon :: cs ++ [c_hyphen]) = Some (name, Some s, None).
Proof.
  intros name s cs Hn Hs Hcs Es.
  pose proof (region_grammar_open name [] (plain_tok cs) [] [] [] Hn eq_refl eq_refl eq_refl
                (plain_tok_ok _ _ Hcs Es) I) as G.
  rewrite plain_tok_str in G. cbn [app] in G. now rewrite G, (plain_tok_val cs s).
Qed.

Lemma dec_plain : forall z, 0 <= z -> forallb is_digit_or_comma (dec z) = true /\ remove_commas (dec z) = dec z.
Proof.
  intros z Hz. pose proof (dec_digits z Hz). split; [|now apply remove_commas_id, digits_nocomma].
  revert H. apply forallb_impl. unfold is_digit_or_comma. now intros x ->.
Qed.

Theorem parse_format_roundtrip : forall name s e,
  name_ok_b name = true -> 0 <= s <= e ->
  parse_region_string (fmt_region name s e) = Some (name, Some s, Some e).
Proof.
  intros name s e Hn [Hs Hse]. destruct (dec_plain s Hs), (dec_plain e (Z.le_trans _ _ _ Hs Hse)).
  now apply parse_commas_roundtrip.
Qed.

Theorem parse_format_roundtrip_open : forall name s,
  name_ok_b name = true -> 0 <= s ->
  parse_region_string (name ++ c_colon :: dec s ++ [c_hyphen]) = Some (name, Some s, None).
Proof. intros name s Hn Hs. destruct (dec_plain s Hs). now apply parse_commas_roundtrip_open. Qed.

(** thousands separators as printed by  f"{z:,}" : grouping only inserts commas *)
Lemma group3_rev_spec : forall n ds, (length ds <= n)%nat ->
  remove_commas (group3_rev ds) = remove_commas ds /\
  forallb is_digit_or_comma (group3_rev ds) = forallb is_digit_or_comma ds.
Proof.
  induction n as [|n IH]; intros ds Hl; [destruct ds; [split; reflexivity|simpl in Hl; lia]|].
  destruct ds as [|a [|b [|c [|d r]]]]; try (split; reflexivity).
  change (group3_rev (a :: b :: c :: d :: r)) with (a :: b :: c :: c_comma :: group3_rev (d :: r)).
  destruct (IH (d :: r)) as [E1 E2]; [simpl in *; lia|].
  unfold remove_commas in *. cbn [filter forallb]. rewrite E1, E2. split; reflexivity.
Qed.

Lemma remove_commas_rev : forall s, remove_commas (rev s) = rev (remove_commas s).
Proof.
  induction s as [|c s IH]; simpl; [reflexivity|].
  rewrite remove_commas_app, IH. simpl. destruct (is_comma c); simpl; [now rewrite app_nil_r|reflexivity].
Qed.

Lemma dec_commas_spec : forall z, 0 <= z ->
  remove_commas (dec_commas z) = dec z /\ forallb is_digit_or_comma (dec_commas z) = true.
Proof.
  intros z Hz. unfold dec_commas. destruct (dec_plain z Hz) as [D1 D2].
  destruct (group3_rev_spec _ (rev (dec z)) (le_n _)) as [E1 E2]. split.
  - now rewrite remove_commas_rev, E1, <- remove_commas_rev, rev_involutive.
  - apply forallb_rev. rewrite E2. now apply forallb_rev.
Qed.

Lemma str_eqb_eq : forall a b, str_eqb a b = true <-> a = b.
Proof.
  induction a as [|x a IH]; destruct b as [|y b]; simpl; split; intros H; try reflexivity; try discriminate.
  - apply andb_true_iff in H as [H1 H2]. apply Z.eqb_eq in H1. apply code_inj in H1. apply IH in H2. now subst.
  - inversion H; subst. rewrite Z.eqb_refl. simpl. now apply IH.
Qed.

(** the unit table: exactly K, KB -> 10^3; M, MB -> 10^6; G, GB -> 10^9 *)
Lemma unit_mult_spec : forall u m, unit_mult u = Some m <->
  ((u = u_K \/ u = u_KB) /\ m = 1000) \/ ((u = u_M \/ u = u_MB) /\ m = 1000000) \/
  ((u = u_G \/ u = u_GB) /\ m = 1000000000).
Proof.
  intros u. assert (E : forall a b, str_eqb u a || str_eqb u b = true -> u = a \/ u = b)
    by (intros a b H; apply orb_true_iff in H; now rewrite !str_eqb_eq in H).
  intros m. split.
  - unfold unit_mult.
    destruct (str_eqb u u_K || str_eqb u u_KB) eqn:E1; [apply E in E1|].
    2: destruct (str_eqb u u_M || str_eqb u u_MB) eqn:E2; [apply E in E2|].
    3: destruct (str_eqb u u_G || str_eqb u u_GB) eqn:E3; [apply E in E3|discriminate].
    all: intros [= <-]; auto.
  - intros [[[-> | ->] ->]|[[[-> | ->] ->]|[[-> | ->] ->]]]; reflexivity.
Qed.

(** numeral  ip.fd  with unit al (multiplier m): the result is floor(ip.fd * m) ... *)
Theorem humanized_floor : forall ip fd al m,
  forallb is_digit_or_comma ip = true -> forallb is_digit fd = true -> forallb is_alpha al = true ->
  al <> [] -> (remove_commas ip <> [] \/ fd <> []) -> unit_mult (map to_upper al) = Some m ->
  parse_humanized (ip ++ c_dot :: fd ++ al)
  = Some ((digits_val (remove_commas ip) * 10 ^ zlen fd + digits_val fd) * m / 10 ^ zlen fd).
Proof.
  intros ip fd al m Hip Hfd Hal Hne Hdig Hu.
  change (ip ++ c_dot :: fd ++ al) with (ip ++ frac_part true fd ++ al).
  rewrite parse_humanized_coord by (assumption || discriminate).
  unfold coord_value. rewrite Hu. destruct al; [congruence|].
  destruct (remove_commas ip), fd; try reflexivity. destruct Hdig; congruence.
Qed.

(** ... hence exactly the integer it denotes whenever that is an integer:
    n = (ip + fd / 10^|fd|) * m  stated without division *)
Theorem humanized_exact : forall ip fd al m n,
  forallb is_digit_or_comma ip = true -> forallb is_digit fd = true -> forallb is_alpha al = true ->
  al <> [] -> (remove_commas ip <> [] \/ fd <> []) -> unit_mult (map to_upper al) = Some m ->
  n * 10 ^ zlen fd = (digits_val (remove_commas ip) * 10 ^ zlen fd + digits_val fd) * m ->
  parse_humanized (ip ++ c_dot :: fd ++ al) = Some n.
Proof.
  intros ip fd al m n Hip Hfd Hal Hne Hdig Hu Hn.
  rewrite (humanized_floor ip fd al m) by assumption. rewrite <- Hn.
  rewrite Z.div_mul; [reflexivity|]. apply Z.pow_nonzero; [discriminate|apply Nat2Z.is_nonneg].
Qed.

Lemma coord_value_unknown_unit : forall ipd hasdot fd al,
  al <> [] -> unit_mult (map to_upper al) = None -> coord_value ipd hasdot fd al = None.
Proof.
  intros ipd hasdot fd al Hne Hu. unfold coord_value. rewrite Hu. destruct al; [congruence|].
  now destruct (is_nil ipd && (negb hasdot || is_nil fd)).
Qed.

Lemma digits_val_nonneg : forall ds, forallb is_digit ds = true -> 0 <= digits_val ds.
Proof.
  intros ds. unfold digits_val. generalize (Z.le_refl 0). generalize 0 at 2 4.
  induction ds as [|c ds IH]; intros a0 Ha H; [assumption|].
  cbn [fold_left forallb] in *. apply andb_true_iff in H as [Hc H]. apply IH; [|assumption]. clear - Ha Hc. cls. lia.
Qed.

Lemma parse_fraction_nonneg : forall value num k, parse_fraction value = Some (num, k) -> 0 <= num /\ 0 <= k.
Proof.
  intros value num k. unfold parse_fraction.
  pose proof (digits_val_nonneg _ (take_while_forallb is_digit value)) as H1.
  destruct (drop_while is_digit value) as [|d r].
  - destruct (is_nil (take_while is_digit value)); [discriminate|]. intros [= <- <-]. lia.
  - destruct (is_dot d); [|discriminate].
    pose proof (digits_val_nonneg _ (take_while_forallb is_digit r)) as H2.
    destruct (drop_while is_digit r); [|discriminate].
    destruct (is_nil (take_while is_digit value) && is_nil (take_while is_digit r)); [discriminate|].
    intros [= <- <-]. unfold zlen.
    assert (0 < 10 ^ Z.of_nat (length (take_while is_digit r))) by (apply Z.pow_pos_nonneg; lia).
    split; [nia|lia].
Qed.

Theorem parse_humanized_nonneg : forall s v, parse_humanized s = Some v -> 0 <= v.
Proof.
  intros s v. unfold parse_humanized.
  set (r := drop_while (fun c => negb (is_numch c)) (remove_commas s)).
  destruct (is_nil (take_while is_numch r)); [discriminate|].
  destruct (existsb is_numch (drop_while is_numch r)); [discriminate|].
  destruct (is_nil (drop_while is_numch r)).
  - unfold parse_int. destruct (is_nil (take_while is_numch r)); [discriminate|].
    destruct (forallb is_digit (take_while is_numch r)) eqn:E; [|discriminate].
    intros [= <-]. now apply digits_val_nonneg.
  - destruct (parse_fraction (take_while is_numch r)) as [[num k]|] eqn:F; [|discriminate].
    destruct (unit_mult (strip (map to_upper (drop_while is_numch r)))) as [m|] eqn:U; [|discriminate].
    intros [= <-]. apply parse_fraction_nonneg in F as [F1 F2].
    assert (0 < m) by (apply unit_mult_spec in U; lia).
    assert (0 < 10 ^ k) by (apply Z.pow_pos_nonneg; lia).
    apply Z.div_pos; [nia|assumption].
Qed.

Lemma ctok_val_nonneg : forall t v, ctok_ok_b t = true -> ctok_val t = Some v -> 0 <= v.
Proof. intros t v Ht Hv. rewrite <- parse_humanized_ctok in Hv by assumption. now apply parse_humanized_nonneg in Hv. Qed.

Lemma match_at_nonnumeric : forall w x r,
  forallb is_blank w = true -> is_blank x = false -> is_digit_or_comma x = false ->
  exists ty tx rest, match_at (w ++ x :: r) = Some ((ty, tx), rest) /\ ty <> COORD.
Proof.
  intros w x r Hw Hb Hdc. unfold match_at.
  rewrite drop_while_app; [|assumption|exact Hb].
  destruct (is_hyphen x); [do 3 eexists; split; [reflexivity|discriminate]|].
  rewrite Hdc. do 3 eexists; split; [reflexivity|discriminate].
Qed.

Theorem refuse_nonnumeric_start : forall name w x rest,
  forallb notcolon name = true -> forallb is_blank w = true ->
  is_blank x = false -> is_digit_or_comma x = false -> is_colon x = false ->
  parse_region_string (name ++ c_colon :: w ++ x :: rest) = None.
Proof.
  intros name w x rest Hn Hw Hb Hdc Hc. rewrite parse_region_string_colon_gen by assumption.
  destruct (is_nil (strip name)); [reflexivity|].
  rewrite take_while_app_keep by now apply blank_notcolon.
  cbn [take_while]. unfold notcolon at 1. rewrite Hc. cbn [negb]. rewrite tokenize_eq.
  destruct (match_at_nonnumeric w x (take_while notcolon rest) Hw Hb Hdc) as (ty & tx & r & -> & Hty).
  now destruct ty.
Qed.

Theorem refuse_nonnumeric_end : forall name w1 t1 w2 w3 x rest,
  forallb notcolon name = true ->
  forallb is_blank w1 = true -> forallb is_blank w2 = true -> forallb is_blank w3 = true ->
  ctok_ok_b t1 = true -> is_blank x = false -> is_digit_or_comma x = false -> is_colon x = false ->
  parse_region_string (name ++ c_colon :: w1 ++ ctok_str t1 ++ w2 ++ c_hyphen :: w3 ++ x :: rest) = None.
Proof.
  intros name w1 t1 w2 w3 x rest Hn Hw1 Hw2 Hw3 Ht1 Hb Hdc Hc.
  rewrite parse_region_string_colon_gen by assumption.
  destruct (is_nil (strip name)); [reflexivity|].
  rewrite !take_while_app_keep, take_notcolon_hyphen, take_while_app_keep
    by auto using blank_notcolon, ctok_notcolon.
  cbn [take_while]. unfold notcolon at 1. rewrite Hc. cbn [negb].
  rewrite tokenize_start, tokenize_eq by assumption.
  destruct (match_at_nonnumeric w3 x (take_while notcolon rest) Hw3 Hb Hdc) as (ty & tx & r & -> & Hty).
  cbn [expect]. destruct (parse_humanized (ctok_str t1)); [|reflexivity]. now destruct ty.
Qed.

Lemma check_bounds : forall (c : str) s e clen r,
  (if e <? s then None
   else if (s <? 0) || match clen with Some l => l <? e | None => false end then None
   else Some (c, s, e)) = Some r ->
  r = (c, s, e) /\ 0 <= s <= e /\ forall l, clen = Some l -> e <= l.
Proof.
  intros c s e clen r. destruct (e <? s) eqn:E1; [discriminate|].
  destruct (s <? 0) eqn:E2; [discriminate|]. cbn [orb]. destruct clen as [l|].
  - destruct (l <? e) eqn:E3; [discriminate|]. intros [= <-]. repeat split; try lia. intros l' [= <-]. lia.
  - intros [= <-]. repeat split; try lia. discriminate.
Qed.

Theorem check_region_sound : forall c oa ob cs c' a b,
  check_region (c, oa, ob) cs = Some (c', a, b) ->
  c' = c /\ 0 <= a <= b /\
  (oa = Some a \/ oa = None /\ a = 0) /\
  match cs with
  | None => ob = Some b
  | Some t => exists L, lookup c t = Some L /\ b <= L /\ (ob = Some b \/ ob = None /\ b = L)
  end.
Proof.
  intros c oa ob cs c' a b. unfold check_region.
  assert (Ha : oa = Some (match oa with Some a => a | None => 0 end) \/
               oa = None /\ match oa with Some a => a | None => 0 end = 0) by (destruct oa; auto).
  destruct cs as [t|]; [destruct (lookup c t) as [L|]; [|discriminate]|].
  - set (e := match ob with Some b => b | None => L end).
    assert (Hb : ob = Some e \/ ob = None /\ e = L) by (destruct ob; auto).
    replace (match ob with Some b0 => Some b0 | None => Some L end) with (Some e) by now destruct ob.
    intros H. apply (check_bounds c _ e (Some L)) in H as ([= -> -> ->] & Hab & HL). eauto 8.
  - destruct ob as [b0|]; [|discriminate].
    intros H. apply (check_bounds c _ b0 None) in H as ([= -> -> ->] & Hab & _). auto.
Qed.

Theorem parse_region_sound : forall s cs c a b,
  parse_region s cs = Some (c, a, b) ->
  0 <= a <= b /\
  (exists oa ob, parse_region_string s = Some (c, oa, ob) /\ (oa = Some a \/ oa = None /\ a = 0) /\
                 match cs with
                 | None => ob = Some b
                 | Some t => exists L, lookup c t = Some L /\ b <= L /\ (ob = Some b \/ ob = None /\ b = L)
                 end).
Proof.
  intros s cs c a b. unfold parse_region.
  destruct (parse_region_string s) as [[[c0 oa] ob]|]; [|discriminate].
  intros H. apply check_region_sound in H as (-> & H1 & H2 & H3).
  split; [assumption|]. exists oa, ob. auto.
Qed.

Theorem parse_region_unknown_name : forall s t c oa ob,
  parse_region_string s = Some (c, oa, ob) -> lookup c t = None -> parse_region s (Some t) = None.
Proof. intros s t c oa ob H L. unfold parse_region, check_region. now rewrite H, L. Qed.

Theorem parse_region_beyond_end : forall s t c oa b L,
  parse_region_string s = Some (c, oa, Some b) -> lookup c t = Some L -> L < b -> parse_region s (Some t) = None.
Proof.
  intros s t c oa b L H Hl Hb. unfold parse_region, check_region. rewrite H, Hl.
  destruct (b <? match oa with Some a => a | None => 0 end); [reflexivity|].
  apply Z.ltb_lt in Hb as ->. now rewrite orb_true_r.
Qed.

Theorem parse_region_complete : forall s t c oa ob L,
  parse_region_string s = Some (c, oa, ob) -> lookup c t = Some L ->
  let a := match oa with Some a => a | None => 0 end in
  let b := match ob with Some b => b | None => L end in
  0 <= a <= b -> b <= L ->
  parse_region s (Some t) = Some (c, a, b).
Proof.
  intros s t c oa ob L H Hl a b Hab HbL. unfold parse_region, check_region. rewrite H, Hl.
  fold a. replace (match ob with Some b0 => Some b0 | None => Some L end) with (Some b) by now destruct ob.
  now rewrite (proj2 (Z.ltb_ge b a)), (proj2 (Z.ltb_ge a 0)), (proj2 (Z.ltb_ge L b)) by lia.
Qed.

Theorem parse_region_no_chromsizes_open_end : forall s c oa,
  parse_region_string s = Some (c, oa, None) -> parse_region s None = None.
Proof. intros s c oa H. unfold parse_region, check_region. now rewrite H. Qed.

Theorem parse_region_string_sound : forall s c oa ob,
  parse_region_string s = Some (c, oa, ob) ->
  c <> [] /\ forallb notcolon c = true /\ stops is_blank c /\ stops is_blank (rev c) /\
  ((oa = None /\ ob = None) \/
   exists a, oa = Some a /\ 0 <= a /\ forall b, ob = Some b -> a <= b).
Proof.
  intros s c oa ob H.
  assert (Hc : c = strip (take_while notcolon s) /\ c <> [] /\ (oa = None -> ob = None)).
  { rewrite parse_region_string_eq in H. cbv zeta in H.
    destruct (strip (take_while notcolon s)) as [|c0 c']; [discriminate|]. cbn [is_nil] in H.
    destruct (drop_while notcolon s); [|destruct (expect _) as [[]|]]; inversion H; subst; repeat split; congruence. }
  destruct Hc as (Hc & Hne & Hob). pose proof (strip_ends (take_while notcolon s)) as [E1 E2].
  pose proof (strip_forallb notcolon _ (take_while_forallb notcolon s)) as E3. rewrite <- Hc in *.
  repeat split; try assumption. destruct oa as [a|]; [right; exists a|now left; auto].
  apply parse_region_string_pieces_inv in H as (n0 & body & tail & _ & _ & _ & _ & _ & _ & X).
  apply expect_tokenize_inv in X as (w1 & t1 & w2 & r2 & _ & Ht1 & _ & _ & V1 & X).
  repeat split; [now apply (ctok_val_nonneg t1)|].
  intros b ->. now destruct X as (w3 & t2 & junk & _ & _ & _ & _ & _ & L).
Qed.

Theorem region_language_closed : forall s c a b,
  parse_region_string s = Some (c, Some a, Some b) <->
  exists n0 w1 t1 w2 w3 t2 junk tail,
    s = n0 ++ c_colon :: (w1 ++ ctok_str t1 ++ w2 ++ c_hyphen :: w3 ++ ctok_str t2 ++ junk) ++ tail /\
    forallb notcolon n0 = true /\ strip n0 = c /\ c <> [] /\
    forallb is_blank w1 = true /\ forallb is_blank w2 = true /\ forallb is_blank w3 = true /\
    ctok_ok_b t1 = true /\ ctok_ok_b t2 = true /\
    forallb notcolon junk = true /\ munch_end t2 junk /\ colon_tail tail /\
    ctok_val t1 = Some a /\ ctok_val t2 = Some b /\ a <= b.
Proof.
  intros s c a b. split.
  - intros H. apply parse_region_string_pieces_inv in H as (n0 & body & tail & -> & Hn & Hb & Ht & Hs & Hc & X).
    apply expect_tokenize_inv in X as (w1 & t1 & w2 & rest2 & Hw1 & Ht1 & Hw2 & -> & V1 & w3 & t2 & junk & Hw3 & Ht2 & -> & Hm & V2 & Hab).
    rewrite notcolon_tok, forallb_app, blank_notcolon in Hb by assumption.
    cbn [forallb] in Hb. rewrite notcolon_tok in Hb by assumption.
    exists n0, w1, t1, w2, w3, t2, junk, tail. repeat split; assumption.
  - intros (n0 & w1 & t1 & w2 & w3 & t2 & junk & tail & -> & Hn & Hs & Hc & Hw1 & Hw2 & Hw3 & Ht1 & Ht2 & Hj & Hm & Ht & V1 & V2 & Hab).
    rewrite parse_region_string_pieces; try assumption.
    + rewrite Hs, expect_tokenize_closed, V1, V2 by assumption.
      destruct c; [congruence|]. cbn [is_nil]. now rewrite (proj2 (Z.ltb_ge b a)).
    + rewrite notcolon_tok, forallb_app, blank_notcolon by assumption. cbn [forallb]. now rewrite notcolon_tok.
Qed.

Theorem region_language_open : forall s c a,
  parse_region_string s = Some (c, Some a, None) <->
  exists n0 w1 t1 w2 nl tail,
    s = n0 ++ c_colon :: (w1 ++ ctok_str t1 ++ w2 ++ c_hyphen :: nl) ++ tail /\
    forallb notcolon n0 = true /\ strip n0 = c /\ c <> [] /\
    forallb is_blank w1 = true /\ forallb is_blank w2 = true /\ forallb is_newline nl = true /\
    ctok_ok_b t1 = true /\ colon_tail tail /\ ctok_val t1 = Some a.
Proof.
  intros s c a. split.
  - intros H. apply parse_region_string_pieces_inv in H as (n0 & body & tail & -> & Hn & Hb & Ht & Hs & Hc & X).
    apply expect_tokenize_inv in X as (w1 & t1 & w2 & nl & Hw1 & Ht1 & Hw2 & -> & V1 & Hnl).
    exists n0, w1, t1, w2, nl, tail. repeat split; assumption.
  - intros (n0 & w1 & t1 & w2 & nl & tail & -> & Hn & Hs & Hc & Hw1 & Hw2 & Hnl & Ht1 & Ht & V1).
    rewrite parse_region_string_pieces; try assumption.
    + rewrite Hs, expect_tokenize_open, V1 by assumption. now destruct c.
    + rewrite notcolon_tok, forallb_app, blank_notcolon by assumption. exact (newline_notcolon nl Hnl).
Qed.

Theorem region_language_bare : forall s c,
  parse_region_string s = Some (c, None, None) <->
  forallb notcolon s = true /\ strip s = c /\ c <> [].
Proof.
  intros s c. split.
  - rewrite parse_region_string_eq. cbv zeta. pose proof (take_drop_while notcolon s) as TD.
    destruct (strip (take_while notcolon s)) as [|c0 c'] eqn:N; [discriminate|]. cbn [is_nil].
    destruct (drop_while notcolon s); [|destruct (expect _) as [[]|]; discriminate].
    rewrite app_nil_r in TD. intros [= <-]. rewrite <- TD at 1 2.
    repeat split; [apply take_while_forallb|assumption|discriminate].
  - intros (Hn & <- & Hc). rewrite parse_region_string_bare_gen by assumption. now destruct (strip s).
Qed.

(** no two adjacent colons anywhere *)
Fixpoint no_dcolon (s : str) : bool :=
  match s with
  | c :: r => match r with
              | c2 :: _ => negb (is_colon c && is_colon c2) && no_dcolon r
              | [] => true
              end
  | [] => true
  end.

(** the last character, if any, is not a colon *)
Fixpoint last_notcolon (s : str) : bool :=
  match s with
  | [] => true
  | c :: r => match r with [] => negb (is_colon c) | _ :: _ => last_notcolon r end
  end.

Lemma split_dcolon_cons2 : forall c c2 r2,
  split_dcolon (c :: c2 :: r2) =
  if is_colon c && is_colon c2 then [] :: split_dcolon r2
  else match split_dcolon (c2 :: r2) with h :: t => (c :: h) :: t | [] => [[c]] end.
Proof. reflexivity. Qed.

(** split_dcolon looks one or two characters ahead: induction with both tails at hand *)
Lemma str_ind2 : forall P : str -> Prop,
  P [] -> (forall c, P [c]) -> (forall c c2 r, P r -> P (c2 :: r) -> P (c :: c2 :: r)) -> forall s, P s.
Proof.
  intros P H0 H1 H2 s. enough (P s /\ forall c, P (c :: s)) by tauto.
  induction s as [|c2 r [IHr IHc]]; auto.
Qed.

Lemma split_dcolon_nonempty : forall s, split_dcolon s <> [].
Proof.
  intros [|c [|c2 r2]]; try discriminate. rewrite split_dcolon_cons2.
  destruct (is_colon c && is_colon c2); [discriminate|].
  destruct (split_dcolon (c2 :: r2)); discriminate.
Qed.

Lemma split_dcolon_none : forall s, no_dcolon s = true -> split_dcolon s = [s].
Proof.
  induction s as [|c|c c2 r _ IH] using str_ind2; intros H; try reflexivity.
  rewrite split_dcolon_cons2. cbn [no_dcolon] in H. apply andb_true_iff in H as [H1 H2].
  apply negb_true_iff in H1. now rewrite H1, IH.
Qed.

Lemma split_dcolon_app : forall f g,
  no_dcolon f = true -> last_notcolon f = true ->
  split_dcolon (f ++ c_colon :: c_colon :: g) = f :: split_dcolon g.
Proof.
  induction f as [|c|c c2 f _ IH] using str_ind2; intros g Hd Hl.
  - reflexivity.
  - cbn [last_notcolon] in Hl. cbn [app]. rewrite split_dcolon_cons2.
    replace (is_colon c) with false by now destruct (is_colon c). now rewrite split_dcolon_cons2.
  - cbn [no_dcolon] in Hd. apply andb_true_iff in Hd as [H1 H2]. apply negb_true_iff in H1.
    specialize (IH g H2 Hl). cbn [app] in *. now rewrite split_dcolon_cons2, H1, IH.
Qed.

(** the group part of a parsed URI: a leading slash is supplied if missing.  Model/H5.v has the same function
    on [string] as [uri_group] (there it is what C15's uri_slash is about); this one is on [list ascii] like the
    rest of Model/Text.v, and parse_cooler_uri has it inlined (uri_split folds it back). *)
Definition norm_group (g : str) : str :=
  match g with
  | c :: _ => if is_slash c then g else c_slash :: g
  | [] => [c_slash]
  end.

Theorem uri_split : forall f g,
  no_dcolon f = true -> last_notcolon f = true -> no_dcolon g = true ->
  parse_cooler_uri (f ++ c_colon :: c_colon :: g) = Some (f, norm_group g).
Proof.
  intros f g Hf Hl Hg. unfold parse_cooler_uri.
  rewrite split_dcolon_app, split_dcolon_none by assumption. now destruct g.
Qed.

(** every "::" adds a part: prepending a character never removes one ... *)
Lemma split_dcolon_length_cons : forall s c,
  (length (split_dcolon s) <= length (split_dcolon (c :: s)))%nat.
Proof.
  induction s as [|c1|c1 c2 s IH _] using str_ind2; intros c; [simpl; lia| |].
  - rewrite split_dcolon_cons2. destruct (is_colon c && is_colon c1); simpl; lia.
  - rewrite (split_dcolon_cons2 c). destruct (is_colon c && is_colon c1).
    + rewrite split_dcolon_cons2. destruct (is_colon c1 && is_colon c2).
      * specialize (IH c2). cbn [length]. lia.
      * destruct (split_dcolon (c2 :: s)); cbn [length]; lia.
    + destruct (split_dcolon (c1 :: c2 :: s)); cbn [length]; lia.
Qed.

(** ... so a separator anywhere leaves at least one part more than what follows it has *)
Lemma split_dcolon_length_sep : forall a r : str,
  (S (length (split_dcolon r)) <= length (split_dcolon (a ++ c_colon :: c_colon :: r)))%nat.
Proof.
  induction a as [|c|c c1 a IHa IHc] using str_ind2; intros r; cbn [app].
  - rewrite split_dcolon_cons2. simpl. lia.
  - rewrite (split_dcolon_cons2 c). destruct (is_colon c && is_colon c_colon).
    + pose proof (split_dcolon_length_cons r c_colon). cbn [length]. lia.
    + rewrite split_dcolon_cons2. simpl. lia.
  - rewrite (split_dcolon_cons2 c c1). specialize (IHa r). specialize (IHc r). cbn [app] in IHc.
    destruct (is_colon c && is_colon c1); [cbn [length]; lia|].
    destruct (split_dcolon (c1 :: a ++ c_colon :: c_colon :: r)); cbn [length] in *; lia.
Qed.

Theorem uri_two_separators_any : forall a b c,
  parse_cooler_uri (a ++ c_colon :: c_colon :: b ++ c_colon :: c_colon :: c) = None.
Proof.
  intros a b c. unfold parse_cooler_uri.
  pose proof (split_dcolon_length_sep a (b ++ c_colon :: c_colon :: c)) as H1.
  pose proof (split_dcolon_length_sep b c) as H2.
  pose proof (split_dcolon_nonempty c) as H3.
  destruct (split_dcolon c); [congruence|]. cbn [length] in H2.
  destruct (split_dcolon (a ++ c_colon :: c_colon :: b ++ c_colon :: c_colon :: c)) as [|p0 [|p1 [|p2 r]]];
    cbn [length] in *; try lia. reflexivity.
Qed.

Theorem uri_two_separators : forall a b c,
  no_dcolon a = true -> last_notcolon a = true -> no_dcolon b = true -> last_notcolon b = true ->
  parse_cooler_uri (a ++ c_colon :: c_colon :: b ++ c_colon :: c_colon :: c) = None.
Proof. intros. apply uri_two_separators_any. Qed.

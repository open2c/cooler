(** C19 x C04  From a region STRING to the bins it selects.
    api.Cooler.extent / bins().fetch / pixels().fetch / matrix().fetch all run
        region_to_extent(grp, self._chromids, parse_region(region, self._chromsizes), self.binsize)
    with  _chromsizes = Series(name -> length)  and  _chromids = dict(zip(names, range(n))).
    This file composes the string parser of C19 (Model/Text.v) with the extent model of C04
    (Model/Extent.v, Proofs/ExtentProofs.v): the only new definitions are the glue between a chromosome
    NAME (what the parser returns) and its INDEX (what the extent model takes). *)
From Cooler Require Import Model.Text Model.Extent Proofs.BinsProofs.
From Cooler Require Proofs.TextProofs Proofs.ExtentProofs.
Import TextProofs.

(** _chromids[name] for distinct names: position of the name in the chromosome list *)
Fixpoint index_of (c : str) (names : list str) : option nat :=
  match names with
  | [] => None
  | n :: r => if str_eqb n c then Some O else option_map S (index_of c r)
  end.

(** _chromsizes: name -> length of the chromosome (end of its last bin) *)
Definition chromsizes_table (names : list str) (blocks : list (list bin)) : Text.chromsizes :=
  combine names (Extent.chromsizes blocks).

(** Cooler.extent(region_string) *)
Definition extent_of_string (names : list str) (blocks : list (list bin)) (s : str) : option (Z * Z) :=
  match Text.parse_region s (Some (chromsizes_table names blocks)) with
  | None => None                                                      (* ValueError: nothing is looked up *)
  | Some (c, a, b) =>
      match index_of c names with
      | None => None                                                  (* cannot happen: parse_region_name_known *)
      | Some i => Some (region_to_extent blocks i a b)
      end
  end.

(** Cooler.bins().fetch(region_string) *)
Definition bins_fetch_string (names : list str) (blocks : list (list bin)) (s : str) : option (list bin) :=
  match extent_of_string names blocks s with
  | None => None
  | Some (lo, hi) => Some (slice (table blocks) lo hi)
  end.

Lemma lookup_combine_index : forall names sizes c, length names = length sizes ->
  lookup c (combine names sizes) =
  match index_of c names with None => None | Some i => nth_error sizes i end.
Proof.
  induction names as [|n names IH]; intros sizes c Hl; [reflexivity|].
  destruct sizes as [|L sizes]; [discriminate|]. simpl.
  destruct (str_eqb n c); [reflexivity|].
  rewrite IH by (simpl in Hl; lia). destruct (index_of c names); reflexivity.
Qed.

Lemma index_of_nth : forall names i name,
  NoDup names -> nth_error names i = Some name -> index_of name names = Some i.
Proof.
  induction names as [|n names IH]; intros i name Hnd Hi; [now destruct i|].
  inversion Hnd as [|? ? Hnot Hnd']; subst. destruct i as [|i]; simpl in *.
  - inversion Hi; subst. assert (str_eqb name name = true) as -> by now apply str_eqb_eq. reflexivity.
  - destruct (str_eqb n name) eqn:E.
    + apply str_eqb_eq in E. subst. exfalso. apply Hnot. eapply nth_error_In; eauto.
    + now rewrite (IH i name Hnd' Hi).
Qed.

Lemma index_of_sound : forall names c i, index_of c names = Some i -> nth_error names i = Some c.
Proof.
  induction names as [|n names IH]; intros c i H; [discriminate|]. simpl in H.
  destruct (str_eqb n c) eqn:E.
  - inversion H; subst. apply str_eqb_eq in E. now subst.
  - destruct (index_of c names) as [j|] eqn:J; [|discriminate]. inversion H; subst. simpl. now apply IH.
Qed.

(** the bounds check of the string parser IS the bounds check of the extent model, name for index *)
Lemma check_region_extent : forall names sizes c oa ob, length names = length sizes ->
  check_region (c, oa, ob) (Some (combine names sizes)) =
  match index_of c names with
  | None => None
  | Some i => match Extent.parse_region sizes i oa ob with
              | None => None
              | Some (_, a, b) => Some (c, a, b)
              end
  end.
Proof.
  intros names sizes c oa ob Hl. unfold check_region. rewrite lookup_combine_index by assumption.
  destruct (index_of c names) as [i|]; [|reflexivity].
  unfold Extent.parse_region. destruct (nth_error sizes i) as [L|]; [|reflexivity].
  destruct ob as [b|]; cbv beta iota zeta; (destruct (_ <? _); [reflexivity|]); destruct (_ || _); reflexivity.
Qed.

(** a name that passed the lookup in _chromsizes is in _chromids *)
Lemma parse_region_name_known : forall names sizes s c a b, length names = length sizes ->
  Text.parse_region s (Some (combine names sizes)) = Some (c, a, b) -> index_of c names <> None.
Proof.
  intros names sizes s c a b Hl. unfold Text.parse_region.
  destruct (parse_region_string s) as [[[c0 oa] ob]|]; [|discriminate].
  rewrite check_region_extent by assumption. destruct (index_of c0 names) as [i|] eqn:I; [|discriminate].
  destruct (Extent.parse_region sizes i oa ob) as [[[? ?] ?]|]; [|discriminate]. intros [= <- _ _]. congruence.
Qed.

(** BRIDGE: fetching with a string = parsing the string (C19) and then running the extent model (C04)
    on the index of the parsed name.  Every C04 theorem about [extent] transfers through this equation. *)
Theorem extent_of_string_eq : forall names blocks s, length names = length blocks ->
  extent_of_string names blocks s =
  match parse_region_string s with
  | None => None
  | Some (c, oa, ob) =>
      match index_of c names with
      | None => None
      | Some i => Extent.extent blocks i oa ob
      end
  end.
Proof.
  intros names blocks s Hl. unfold extent_of_string, Text.parse_region, chromsizes_table.
  destruct (parse_region_string s) as [[[c oa] ob]|]; [|reflexivity].
  rewrite check_region_extent by (unfold Extent.chromsizes; now rewrite map_length).
  destruct (index_of c names) as [i|] eqn:I; [|reflexivity].
  unfold Extent.extent.
  destruct (Extent.parse_region (Extent.chromsizes blocks) i oa ob) as [[[i' a] b]|] eqn:P; [|reflexivity].
  rewrite I. apply ExtentProofs.parse_region_sound in P as (L & _ & -> & _). reflexivity.
Qed.

Section Fetch.
  Variables (names : list str) (blocks : list (list bin)).
  Hypothesis Hlen : length names = length blocks.
  Hypothesis Hnd : NoDup names.
  Hypothesis HV : ValidBlocks blocks.

  Lemma chromsizes_nth : forall i blk, nth_error blocks i = Some blk ->
    nth_error (Extent.chromsizes blocks) i = Some (chrom_len blk).
  Proof. intros i blk H. unfold Extent.chromsizes. now apply map_nth_error. Qed.

  (** any string that parses to (name, Some s, Some e) with 0 <= s < e <= L_i selects exactly the
      bins of chromosome i that overlap [s, e) *)
  Lemma extent_of_parsed_closed : forall str name i blk s e,
    parse_region_string str = Some (name, Some s, Some e) ->
    nth_error names i = Some name -> nth_error blocks i = Some blk ->
    0 <= s < e -> e <= chrom_len blk ->
    exists lo hi, extent_of_string names blocks str = Some (lo, hi) /\
      (forall k : nat, lo <= Z.of_nat k < hi <->
         exists x, nth_error (table blocks) k = Some x /\ bchrom x = Z.of_nat i /\ bstart x < e /\ s < bend x) /\
      chrom_offset blocks i <= lo < hi /\ hi <= chrom_offset blocks (S i) /\
      bins_fetch_string names blocks str = Some (filter (overlaps_b i s e) (table blocks)).
  Proof.
    intros str name i blk s e Hp Hn Hb Hse HeL.
    pose proof (extent_of_string_eq names blocks str Hlen) as E. rewrite Hp in E.
    rewrite (index_of_nth names i name Hnd Hn) in E.
    unfold Extent.extent in E.
    rewrite (ExtentProofs.parse_region_complete _ i (Some s) (Some e) (chrom_len blk)) in E
      by (try apply chromsizes_nth; simpl; try assumption; lia).
    simpl in E.
    pose proof (ExtentProofs.extent_overlap blocks i blk s e HV Hb Hse HeL) as O.
    pose proof (ExtentProofs.bins_fetch_overlap blocks i blk s e HV Hb Hse HeL) as B.
    unfold bins_fetch, Extent.extent in B.
    rewrite (ExtentProofs.parse_region_complete _ i (Some s) (Some e) (chrom_len blk)) in B
      by (try apply chromsizes_nth; simpl; try assumption; lia).
    simpl in B.
    destruct (region_to_extent blocks i s e) as [lo hi]. destruct O as (O1 & O2 & O3).
    exists lo, hi. split; [exact E|]. split; [exact O1|]. split; [exact O2|]. split; [exact O3|].
    unfold bins_fetch_string. rewrite E. exact B.
  Qed.

  Theorem fetch_string_overlap : forall name i blk s e,
    name_ok_b name = true -> nth_error names i = Some name -> nth_error blocks i = Some blk ->
    0 <= s < e -> e <= chrom_len blk ->
    exists lo hi, extent_of_string names blocks (fmt_region name s e) = Some (lo, hi) /\
      (forall k : nat, lo <= Z.of_nat k < hi <->
         exists x, nth_error (table blocks) k = Some x /\ bchrom x = Z.of_nat i /\ bstart x < e /\ s < bend x) /\
      chrom_offset blocks i <= lo < hi /\ hi <= chrom_offset blocks (S i) /\
      bins_fetch_string names blocks (fmt_region name s e) = Some (filter (overlaps_b i s e) (table blocks)).
  Proof.
    intros name i blk s e Hok Hn Hb Hse HeL.
    apply (extent_of_parsed_closed _ name i blk s e); try assumption.
    apply parse_format_roundtrip; [assumption|clear - Hse; lia].
  Qed.

  Theorem fetch_string_overlap_commas : forall name i blk s e cs ce,
    name_ok_b name = true -> nth_error names i = Some name -> nth_error blocks i = Some blk ->
    0 <= s < e -> e <= chrom_len blk ->
    forallb is_digit_or_comma cs = true -> remove_commas cs = dec s ->
    forallb is_digit_or_comma ce = true -> remove_commas ce = dec e ->
    exists lo hi, extent_of_string names blocks (name ++ c_colon :: cs ++ c_hyphen :: ce) = Some (lo, hi) /\
      (forall k : nat, lo <= Z.of_nat k < hi <->
         exists x, nth_error (table blocks) k = Some x /\ bchrom x = Z.of_nat i /\ bstart x < e /\ s < bend x) /\
      chrom_offset blocks i <= lo < hi /\ hi <= chrom_offset blocks (S i) /\
      bins_fetch_string names blocks (name ++ c_colon :: cs ++ c_hyphen :: ce)
        = Some (filter (overlaps_b i s e) (table blocks)).
  Proof.
    intros name i blk s e cs ce Hok Hn Hb Hse HeL H1 H2 H3 H4.
    apply (extent_of_parsed_closed _ name i blk s e); try assumption.
    apply parse_commas_roundtrip; try assumption. clear - Hse. lia.
  Qed.

  Corollary fetch_string_overlap_grouped : forall name i blk s e,
    name_ok_b name = true -> nth_error names i = Some name -> nth_error blocks i = Some blk ->
    0 <= s < e -> e <= chrom_len blk ->
    bins_fetch_string names blocks (name ++ c_colon :: dec_commas s ++ c_hyphen :: dec_commas e)
      = Some (filter (overlaps_b i s e) (table blocks)).
  Proof.
    intros name i blk s e Hok Hn Hb Hse HeL.
    destruct (dec_commas_spec s) as [A1 A2]; [clear - Hse; lia|]. destruct (dec_commas_spec e) as [B1 B2]; [clear - Hse; lia|].
    destruct (fetch_string_overlap_commas name i blk s e _ _ Hok Hn Hb Hse HeL A2 A1 B2 B1)
      as (lo & hi & _ & _ & _ & _ & F). exact F.
  Qed.

  Theorem fetch_bare_name : forall name i blk,
    name_ok_b name = true -> nth_error names i = Some name -> nth_error blocks i = Some blk ->
    extent_of_string names blocks name = Some (chrom_offset blocks i, chrom_offset blocks (S i)).
  Proof.
    intros name i blk Hok Hn Hb.
    rewrite extent_of_string_eq by assumption. rewrite parse_region_string_bare by assumption.
    rewrite (index_of_nth names i name Hnd Hn).
    now apply (ExtentProofs.extent_whole_chrom blocks i blk).
  Qed.

  Theorem fetch_open_end : forall name i blk s,
    name_ok_b name = true -> nth_error names i = Some name -> nth_error blocks i = Some blk ->
    0 <= s < chrom_len blk ->
    exists lo hi, extent_of_string names blocks (name ++ c_colon :: dec s ++ [c_hyphen]) = Some (lo, hi) /\
      (forall k : nat, lo <= Z.of_nat k < hi <->
         exists x, nth_error (table blocks) k = Some x /\ bchrom x = Z.of_nat i /\
                   bstart x < chrom_len blk /\ s < bend x) /\
      chrom_offset blocks i <= lo < hi /\ hi <= chrom_offset blocks (S i).
  Proof.
    intros name i blk s Hok Hn Hb Hs.
    pose proof (extent_of_string_eq names blocks (name ++ c_colon :: dec s ++ [c_hyphen]) Hlen) as E.
    rewrite parse_format_roundtrip_open in E by (assumption || lia).
    rewrite (index_of_nth names i name Hnd Hn) in E. unfold Extent.extent in E.
    rewrite (ExtentProofs.parse_region_complete _ i (Some s) None (chrom_len blk)) in E
      by (try apply chromsizes_nth; simpl; try assumption; lia).
    simpl in E.
    pose proof (ExtentProofs.extent_overlap blocks i blk s (chrom_len blk) HV Hb ltac:(lia) ltac:(lia)) as O.
    destruct (region_to_extent blocks i s (chrom_len blk)) as [lo hi]. destruct O as (O1 & O2 & O3).
    exists lo, hi. split; [exact E|]. split; [exact O1|]. split; [exact O2|exact O3].
  Qed.

  (** refused strings never reach region_to_extent: reversed, beyond the end, unknown name *)
  Theorem fetch_refused : forall name i blk s e,
    name_ok_b name = true -> nth_error names i = Some name -> nth_error blocks i = Some blk ->
    0 <= s -> 0 <= e ->
    (e < s \/ chrom_len blk < e) ->
    Text.parse_region (fmt_region name s e) (Some (chromsizes_table names blocks)) = None /\
    extent_of_string names blocks (fmt_region name s e) = None.
  Proof.
    intros name i blk s e Hok Hn Hb Hs He Hbad.
    assert (P : Text.parse_region (fmt_region name s e) (Some (chromsizes_table names blocks)) = None).
    { destruct (Z.lt_ge_cases e s) as [Hrev|Hord].
      - unfold Text.parse_region, fmt_region. destruct (dec_plain s Hs), (dec_plain e He).
        rewrite (parse_commas_gen name s e) by assumption. now apply Z.ltb_lt in Hrev as ->.
      - apply (parse_region_beyond_end _ _ name (Some s) e (chrom_len blk)); [apply parse_format_roundtrip; auto; lia| |lia].
        unfold chromsizes_table. rewrite lookup_combine_index by (unfold Extent.chromsizes; now rewrite map_length).
        rewrite (index_of_nth names i name Hnd Hn). now apply chromsizes_nth. }
    split; [exact P|]. unfold extent_of_string. now rewrite P.
  Qed.

  Theorem fetch_unknown_name : forall str c oa ob,
    parse_region_string str = Some (c, oa, ob) -> ~ In c names ->
    Text.parse_region str (Some (chromsizes_table names blocks)) = None /\
    extent_of_string names blocks str = None.
  Proof.
    intros str c oa ob Hp Hnot.
    assert (I0 : index_of c names = None).
    { destruct (index_of c names) as [i|] eqn:I; [|reflexivity].
      exfalso. apply Hnot. apply index_of_sound in I. eapply nth_error_In; eauto. }
    assert (P : Text.parse_region str (Some (chromsizes_table names blocks)) = None).
    { apply (parse_region_unknown_name str _ c oa ob Hp).
      unfold chromsizes_table. rewrite lookup_combine_index by (unfold Extent.chromsizes; now rewrite map_length).
      now rewrite I0. }
    split; [exact P|]. unfold extent_of_string. now rewrite P.
  Qed.

  (** conversely: whenever a string fetch reaches region_to_extent, it does so with a known chromosome
      and 0 <= start <= end <= its length, i.e. inside the hypotheses of the C04 theorems *)
  Theorem fetch_reaches_extent_in_bounds : forall str r,
    extent_of_string names blocks str = Some r ->
    exists c oa ob i blk a b,
      parse_region_string str = Some (c, oa, ob) /\ nth_error names i = Some c /\
      nth_error blocks i = Some blk /\ 0 <= a <= b /\ b <= chrom_len blk /\
      a = ExtentProofs.dflt 0 oa /\ b = ExtentProofs.dflt (chrom_len blk) ob /\
      r = region_to_extent blocks i a b.
  Proof.
    intros str r. rewrite extent_of_string_eq by assumption.
    destruct (parse_region_string str) as [[[c oa] ob]|]; [|discriminate].
    destruct (index_of c names) as [i|] eqn:I; [|discriminate].
    unfold Extent.extent.
    destruct (Extent.parse_region (Extent.chromsizes blocks) i oa ob) as [[[i' a] b]|] eqn:P; [|discriminate].
    intros H; inversion H; subst r.
    apply ExtentProofs.parse_region_sound in P as (L & HL & -> & -> & -> & H1 & H2).
    unfold Extent.chromsizes in HL. rewrite nth_error_map in HL.
    destruct (nth_error blocks i) as [blk|] eqn:Hb; [|discriminate]. inversion HL; subst L.
    exists c, oa, ob, i, blk, (ExtentProofs.dflt 0 oa), (ExtentProofs.dflt (chrom_len blk) ob).
    repeat split; try assumption; try reflexivity; try lia. now apply index_of_sound.
  Qed.
End Fetch.

(** URI normal form; C15's uri_slash (Proofs/H5Proofs.v) says the same of group paths once parsed *)
Definition render_uri (r : str * str) : str := fst r ++ c_colon :: c_colon :: snd r.

Lemma norm_group_idem : forall g, norm_group (norm_group g) = norm_group g.
Proof.
  intros [|c g]; [reflexivity|]. cbn [norm_group]. destruct (is_slash c) eqn:E.
  - cbn [norm_group]. now rewrite E.
  - reflexivity.
Qed.

Lemma norm_group_no_dcolon : forall g, no_dcolon g = true -> no_dcolon (norm_group g) = true.
Proof.
  intros [|c g] H; [reflexivity|]. unfold norm_group. destruct (is_slash c); [assumption|].
  change (no_dcolon (c_slash :: c :: g)) with (negb (is_colon c_slash && is_colon c) && no_dcolon (c :: g)).
  now rewrite H.
Qed.

(** parse, render, parse again: the rendered URI is a fixed point (normal form) *)
Theorem uri_normal_form : forall f g,
  no_dcolon f = true -> last_notcolon f = true -> no_dcolon g = true ->
  exists r, parse_cooler_uri (f ++ c_colon :: c_colon :: g) = Some r /\
            r = (f, norm_group g) /\
            parse_cooler_uri (render_uri r) = Some r.
Proof.
  intros f g Hf Hl Hg. exists (f, norm_group g). split; [now apply uri_split|]. split; [reflexivity|].
  unfold render_uri. simpl. rewrite uri_split; try assumption.
  - now rewrite norm_group_idem.
  - now apply norm_group_no_dcolon.
Qed.

Lemma split_dcolon_head : forall c2 r2 h t, split_dcolon (c2 :: r2) = h :: t -> h = [] \/ exists h', h = c2 :: h'.
Proof.
  intros c2 [|c3 r3] h t H.
  - simpl in H. inversion H; subst. right. now exists [].
  - rewrite split_dcolon_cons2 in H. destruct (is_colon c2 && is_colon c3).
    + inversion H; subst. now left.
    + destruct (split_dcolon (c3 :: r3)) as [|h0 t0]; inversion H; subst; right; eauto.
Qed.

Lemma split_dcolon_parts : forall s, Forall (fun p => no_dcolon p = true) (split_dcolon s).
Proof.
  induction s as [|c|c c2 r2 IHr IH] using str_ind2; try (repeat constructor).
  rewrite split_dcolon_cons2.
  destruct (is_colon c && is_colon c2) eqn:E; [now constructor|].
  destruct (split_dcolon (c2 :: r2)) as [|h t] eqn:S; [repeat constructor|].
  inversion IH as [|? ? Fh Ft]; subst. constructor; [|assumption].
  destruct (split_dcolon_head _ _ _ _ S) as [->|[h' ->]]; [reflexivity|].
  change (no_dcolon (c :: c2 :: h')) with (negb (is_colon c && is_colon c2) && no_dcolon (c2 :: h')).
  now rewrite E, Fh.
Qed.

(** for EVERY accepted URI (file part not ending in ':'): rendering the parsed pair and parsing again
    gives the same pair *)
Theorem uri_render_idempotent : forall s r,
  parse_cooler_uri s = Some r -> last_notcolon (fst r) = true ->
  parse_cooler_uri (render_uri r) = Some r.
Proof.
  intros s [f g]. unfold parse_cooler_uri at 1.
  pose proof (split_dcolon_parts s) as F.
  destruct (split_dcolon s) as [|p0 [|p1 [|p2 t]]]; try discriminate.
  - inversion F as [|? ? F0 _]; subst. intros H Hl; inversion H; subst. simpl in Hl.
    unfold render_uri. simpl fst. simpl snd. now rewrite uri_split by (assumption || reflexivity).
  - inversion F as [|? ? F0 F']; subst. inversion F' as [|? ? F1 _]; subst.
    intros H Hl; inversion H; subst. simpl in Hl.
    assert (N : match p1 with [] => c_slash :: p1 | c :: _ => if is_slash c then p1 else c_slash :: p1 end
                = norm_group p1) by (destruct p1; reflexivity).
    rewrite N. unfold render_uri. simpl fst. simpl snd.
    rewrite uri_split; try assumption; [now rewrite norm_group_idem|now apply norm_group_no_dcolon].
Qed.

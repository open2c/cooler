(** Admissibility of the row spans produced by CSRReader.get_spans / arg_prune_partition (C03):
    for every chunk size, and for every cut sequence that contains the first and the last offset of the box and
    nothing above the last ([AdmissibleCuts]), the spans are consecutive, start at the first row of the box and
    leave only empty rows uncovered. *)
From Cooler Require Import Model.Query Proofs.PixelsProofs Proofs.QueryProofs.
From Coq Require Import Sorted ZifyBool.

Lemma uins_in x l y : In y (uins x l) <-> x = y \/ In y l.
Proof.
  induction l as [|h t IH]; cbn [uins In]; [reflexivity|].
  destruct (x <? h); [reflexivity|].
  destruct (x =? h) eqn:E; cbn [In]; [assert (x = h) as -> by lia|rewrite IH]; clear; tauto.
Qed.
Lemma uins_sorted x l : StronglySorted Z.lt l -> StronglySorted Z.lt (uins x l).
Proof.
  induction l as [|h t IH]; cbn [uins]; intro H; [repeat constructor|].
  inversion H as [|? ? Ht Hall]; subst.
  destruct (x <? h) eqn:E1.
  - constructor; [exact H|]. constructor; [lia|]. eapply Forall_impl; [|exact Hall]. intros; lia.
  - destruct (x =? h) eqn:E2; [exact H|]. constructor; [apply IH; exact Ht|].
    apply Forall_forall. intros y Hy. apply uins_in in Hy. destruct Hy as [<-|Hy]; [lia|].
    rewrite Forall_forall in Hall. now apply Hall.
Qed.
Lemma unique_in l y : In y (unique l) <-> In y l.
Proof.
  induction l as [|h t IH]; cbn [unique fold_right In]; [tauto|].
  fold (unique t). now rewrite uins_in, IH.
Qed.
Lemma unique_sorted l : StronglySorted Z.lt (unique l).
Proof. induction l as [|h t IH]; cbn [unique fold_right]; [constructor|]. apply uins_sorted. exact IH. Qed.

Lemma sorted_lt_bounds h t : StronglySorted Z.lt (h :: t) -> chain h t /\ forall x, In x (h :: t) -> h <= x <= last t h.
Proof.
  revert h; induction t as [|e t IH]; intros h H.
  - split; [exact I|]. intros x [->|[]]. cbn. lia.
  - apply StronglySorted_inv in H. destruct H as [Ht Hall]. apply Forall_inv in Hall. destruct (IH e Ht) as [Hc Hb].
    rewrite last_cons. pose proof (Hb e (or_introl eq_refl)). split; [split; [lia|exact Hc]|].
    intros x [->|Hx]; [|apply Hb in Hx]; lia.
Qed.
(** what the theorems ask of the cut points np.linspace returns for the offsets [seq] of a box: the two end points
    are among them and none exceeds the last offset; nothing is asked of the interior points *)
Definition AdmissibleCuts (seq cuts : list Z) : Prop :=
  In (hd 0 seq) cuts /\ In (last seq 0) cuts /\ Forall (fun c => c <= last seq 0) cuts.

Lemma prune_admissible seq cuts : StronglySorted Z.le seq -> seq <> [] -> AdmissibleCuts seq cuts ->
  exists es, prune_with_cuts seq cuts = 0 :: es /\ chain 0 es /\
    0 <= last es 0 < zlen seq /\ nth (Z.to_nat (last es 0)) seq 0 = last seq 0.
Proof.
  (* [searchsorted_left seq] is monotone, sends the first offset to 0 and the last to an index that holds it, and
     [unique] sorts and dedups: so the edges start at 0, ascend, and end at the image of the last offset *)
  intros Hs Hne [Hlo [Hhi Hall]]. unfold prune_with_cuts.
  set (ss := searchsorted_left seq). set (m := ss (last seq 0)).
  assert (HU := unique_sorted (map ss cuts)).
  assert (Hin : forall y, In y (unique (map ss cuts)) <-> exists c, ss c = y /\ In c cuts) by (intro; rewrite unique_in; apply in_map_iff).
  assert (Hrange : forall y, In y (unique (map ss cuts)) -> 0 <= y <= m).
  { intros y Hy. apply Hin in Hy. destruct Hy as [c [<- Hc]]. split; [apply ss_left_bounds|]. apply ss_left_mono. rewrite Forall_forall in Hall. now apply Hall. }
  assert (H0 : In 0 (unique (map ss cuts))).
  { apply Hin. exists (hd 0 seq). split; [apply ss_left_hd|exact Hlo]. }
  assert (Hm : In m (unique (map ss cuts))) by (apply Hin; now exists (last seq 0)).
  destruct (unique (map ss cuts)) as [|h es]; [destruct H0|]. destruct (sorted_lt_bounds h es HU) as [Hch Hb].
  assert (h = 0) as -> by (pose proof (Hb 0 H0); pose proof (Hrange h (or_introl eq_refl)); lia).
  exists es. split; [reflexivity|]. split; [exact Hch|].
  replace (last es 0) with m by (pose proof (Hb m Hm); pose proof (Hrange _ (last_in es 0)); lia).
  apply (ss_left_found seq _ Hs). destruct seq as [|s0 st]; [congruence|]. rewrite last_cons. apply last_in.
Qed.

(** the cuts of arg_prune_partition: [num = 2 + (hi - lo) // step] points from lo to hi (_rangequery.py:148-149) *)
Definition linspace_cuts (step : Z) (seq : list Z) : list Z :=
  linspace_int (hd 0 seq) (last seq 0) (2 + (last seq 0 - hd 0 seq) / step).
Lemma linspace_admissible step : 1 <= step -> forall seq, StronglySorted Z.le seq -> seq <> [] ->
  AdmissibleCuts seq (linspace_cuts step seq).
Proof.
  intros Hstep seq Hs Hne. unfold linspace_cuts.
  assert (Hlohi : hd 0 seq <= last seq 0).
  { destruct seq as [|a t]; [congruence|]. apply (sorted_le_last _ 0 Hs). now left. }
  set (lo := hd 0 seq) in *. set (hi := last seq 0) in *. set (num := 2 + (hi - lo) / step).
  assert (Hnum : 2 <= num) by (unfold num; pose proof (Z.div_pos (hi - lo) step ltac:(lia) ltac:(lia)); lia).
  unfold AdmissibleCuts, linspace_int. repeat split.
  - apply in_map_iff. exists 0. split; [rewrite Z.mul_0_l, Z.div_0_l by lia; lia|]. apply in_zrange. lia.
  - apply in_map_iff. exists (num - 1). split; [|apply in_zrange; lia].
    rewrite Z.mul_comm, Z.div_mul by lia. lia.
  - apply Forall_forall. intros c Hc. apply in_map_iff in Hc. destruct Hc as [k [<- Hk]]. apply in_zrange in Hk.
    assert (k * (hi - lo) / (num - 1) <= hi - lo).
    { apply Z.div_le_upper_bound; [lia|]. apply Z.mul_le_mono_nonneg_r; lia. }
    lia.
Qed.

Definition spans_with (cutsf : list Z -> list Z) (off : list Z) (bb : bbox) : list span :=
  let '(i0, i1, j0, j1) := bb in
  if (i1 - i0 <? 1) || (j1 - j0 <? 1) then []
  else pairs_of_edges (map (Z.add i0) (prune_with_cuts (slice off i0 (i1 + 1)) (cutsf (slice off i0 (i1 + 1))))).
(** [get_spans] is [spans_with] at the cuts of the exact-arithmetic linspace, by unfolding [arg_prune_partition] *)
Lemma get_spans_eq off cs : get_spans off cs = spans_with (linspace_cuts cs) off.
Proof. reflexivity. Qed.

Lemma chain_map_add a lo es : chain lo es -> chain (a + lo) (map (Z.add a) es).
Proof. revert lo; induction es as [|e t IH]; intros lo H; cbn [map chain]; [exact I|]. destruct H. split; [lia|]. now apply IH. Qed.
Lemma last_map_add a es d : last (map (Z.add a) es) (a + d) = a + last es d.
Proof.
  revert d; induction es as [|e t IH]; intro d; [reflexivity|]. cbn [map]. rewrite !last_cons. apply IH.
Qed.

Theorem spans_with_admissible n (rows : list (list ipixel)) cutsf : zlen rows = n ->
  (forall seq, StronglySorted Z.le seq -> seq <> [] -> AdmissibleCuts seq (cutsf seq)) ->
  forall x0 x1 y0 y1, 0 <= x0 -> x0 <= x1 -> x1 <= n ->
    AdmissibleSpans rows x0 x1 (spans_with cutsf (psums 0 (map zlen rows)) (x0, x1, y0, y1)) \/
    (y1 <= y0 /\ spans_with cutsf (psums 0 (map zlen rows)) (x0, x1, y0, y1) = []).
Proof.
  intros Hn Hcuts x0 x1 y0 y1 H0 H01 H1. unfold spans_with.
  destruct (y1 - y0 <? 1) eqn:Ey; [right; rewrite orb_true_r; split; [lia|reflexivity]|].
  rewrite orb_false_r. left.
  destruct (x1 - x0 <? 1) eqn:Ex.
  - assert (x1 = x0) by lia. subst x1. exists []. cbn [last chain]. repeat split; lia.
  - set (off := psums 0 (map zlen rows)). set (seq := slice off x0 (x1 + 1)).
    assert (Hoffsorted : StronglySorted Z.le off).
    { apply psums_sorted. apply Forall_forall. intros z Hz. apply in_map_iff in Hz. destruct Hz as [r [<- _]]. apply zlen_nonneg. }
    assert (Hofflen : length off = S (length rows)) by (unfold off; now rewrite psums_length, map_length).
    assert (Hseqlen : length seq = Z.to_nat (x1 - x0 + 1)).
    { unfold seq. rewrite slice_length; unfold zlen in *; lia. }
    assert (Hseqs : StronglySorted Z.le seq) by apply ssorted_slice, Hoffsorted.
    assert (Hseqne : seq <> []) by (intro E; rewrite E in Hseqlen; cbn in Hseqlen; lia).
    assert (Hnth : forall k, 0 <= k <= x1 - x0 -> nth (Z.to_nat k) seq 0 = znth off (x0 + k) 0).
    { intros k Hk. apply nth_slice; lia. }
    destruct (prune_admissible seq (cutsf seq) Hseqs Hseqne (Hcuts seq Hseqs Hseqne)) as [es [Hp [Hc [Hb Hl]]]].
    rewrite Hp. cbn [map]. rewrite Z.add_0_r. exists (map (Z.add x0) es).
    split; [reflexivity|]. split; [rewrite <- (Z.add_0_r x0) at 1; now apply chain_map_add|].
    assert (Hlast : last (map (Z.add x0) es) x0 = x0 + last es 0).
    { rewrite <- (Z.add_0_r x0) at 2. apply last_map_add. }
    rewrite Hlast. unfold zlen in Hb. split; [lia|].
    rewrite <- Hnth by lia. rewrite Hl. rewrite (last_nth seq 0).
    replace (length seq - 1)%nat with (Z.to_nat (x1 - x0)) by lia. rewrite Hnth by lia. f_equal. lia.
Qed.

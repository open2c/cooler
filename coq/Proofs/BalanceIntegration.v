(** Cross-property integration of C10 (balancing, Proofs/BalanceProofs.v) with C12 (balanced reads,
    Proofs/BalancedProofs.v) and C03 (dense reads), plus the end-to-end cis-only NaN-set theorem. *)
From Cooler Require Import Model.Query Model.Balanced Proofs.PixelsProofs Proofs.QueryProofs Proofs.QueryMain Proofs.BalancedProofs.
From Cooler Require Import Model.Balance Proofs.BalanceProofs.
From Coq Require Import Lia Lqa.
Open Scope Z_scope.

(** a NaN cell counts as 0 in a row sum (numpy.nansum); a NaN weight as 0 *)
Definition valq (c : weight) : Q := match c with Some q => q | None => 0%Q end.
Definition wq (w : list weight) : list Q := map valq w.
(** sum over the columns 0..n-1 of the non-NaN cells of row a of a dense balanced read *)
Definition row_nansum (D : list (list weight)) (a : Z) (n : nat) : Q :=
  sumQ (map (fun b => valq (nth (Z.to_nat b) (nth (Z.to_nat a) D []) None)) (zrange 0 n)).

Lemma qnth_wq : forall w k, qnth (wq w) k = valq (wnth w k).
Proof. intros. unfold qnth, wq, wnth. change 0%Q with (valq None). apply map_nth. Qed.

Lemma look_as_sum : forall (px : list pixel) a b,
  (inject_Z (look px (a, b)) ==
   sumQ (map (fun p => if (row p =? a) && (col p =? b) then inject_Z (val p) else 0) px))%Q.
Proof.
  induction px as [|[[r c] v] t IH]; intros a b; [reflexivity|].
  cbn [look map sumQ fold_right]. rewrite inject_Z_plus, IH. unfold row, col, val. cbn [fst snd].
  apply Qplus_comp; [|reflexivity].
  destruct (Z.eqb_spec r a) as [->|Hr], (Z.eqb_spec c b) as [->|Hc]; cbn [andb]; [now rewrite kcmp_refl | ..];
    (destruct (kcmp (a, b) _) eqn:K; [apply kcmp_eq in K; congruence | reflexivity..]).
Qed.

(** with no data filter (genome-wide, ignore_diags = 0) the matrix F of the balancing theorems is the
    symmetric completion [symm] that the dense read returns *)
Lemma Fmat_nil_symm : forall (px : list pixel) i j, (Fmat [] px i j == inject_Z (symm px i j))%Q.
Proof.
  intros px i j. unfold Fmat, dense, filtered. rewrite map_map. unfold symm.
  destruct (Z.leb_spec i j) as [H|H]; rewrite look_as_sum; apply sumQ_ext; intros p _;
    unfold pipe1, init1, b1, b2, dat, row, col, val; cbn [fold_left fst snd].
  - rewrite Z.min_l, Z.max_r by lia. reflexivity.
  - rewrite Z.min_r, Z.max_l by lia. reflexivity.
Qed.

Lemma valq_cell : forall (wa wb : weight) (s : Z),
  (valq (wmul (wmul wa wb) (wofZ s)) == valq wa * inject_Z s * valq wb)%Q.
Proof. intros [x|] [y|] s; cbn; ring. Qed.

(** the stored weight column of a run: non-negative, w_j^2 * scale = b_j^2, NaN read as 0
    (i.e. w = b / sqrt(scale) with NaN on the bins whose final weight is 0) *)
Definition StoredWeights (w : list weight) (bb : list Q) (mu : Q) : Prop :=
  forall j, (0 <= qnth (wq w) j)%Q /\ (qnth (wq w) j * qnth (wq w) j * mu == qnth bb j * qnth bb j)%Q.

(** with ignore_diags = d > 0 the loop equalises the matrix WITHOUT its first d diagonals, so the flat quantity of
    the read is the row sum over the cells with |a - b| >= d *)
Definition row_nansum_off (D : list (list weight)) (a : Z) (n : nat) (d : Z) : Q :=
  sumQ (map (fun b => if Z.abs (a - b) <? d then 0%Q else valq (nth (Z.to_nat b) (nth (Z.to_nat a) D []) None)) (zrange 0 n)).

Lemma Fmat_diags_symm : forall d (px : list pixel) i j,
  (Fmat [f_zero_diags d] px i j == if Z.abs (i - j) <? d then 0 else inject_Z (symm px i j))%Q.
Proof.
  intros d px i j. destruct (Z.ltb_spec (Z.abs (i - j)) d) as [Hd|Hd].
  - unfold Fmat, dense, filtered. rewrite map_map. apply sumQ_zero_ext. intros p _.
    unfold pipe1, init1. cbn [fold_left]. unfold f_zero_diags, b1, b2, dat. cbn [fst snd].
    destruct (Z.ltb_spec (Z.abs (fst (fst p) - snd (fst p))) d) as [H1|H1]; cbn [fst snd].
    + destruct (_ && _); reflexivity.
    + destruct (Z.eqb_spec (fst (fst p)) (Z.min i j)), (Z.eqb_spec (snd (fst p)) (Z.max i j)); cbn [andb]; try reflexivity. lia.
  - rewrite <- Fmat_nil_symm. unfold Fmat, dense, filtered. rewrite !map_map. apply sumQ_ext. intros p _.
    unfold pipe1, init1. cbn [fold_left]. unfold f_zero_diags, b1, b2, dat. cbn [fst snd].
    destruct (Z.ltb_spec (Z.abs (fst (fst p) - snd (fst p))) d) as [H1|H1]; cbn [fst snd]; [|reflexivity].
    destruct (Z.eqb_spec (fst (fst p)) (Z.min i j)), (Z.eqb_spec (snd (fst p)) (Z.max i j)); cbn [andb]; try reflexivity. lia.
Qed.

(** the nan-sum of row a over the cells (a, b) that [z] does not skip: [row_nansum] skips none, [row_nansum_off]
    those of the first d diagonals *)
Definition row_nansum_skip (z : Z -> Z -> bool) (D : list (list weight)) (a : Z) (n : nat) : Q :=
  sumQ (map (fun b => if z a b then 0%Q else valq (nth (Z.to_nat b) (nth (Z.to_nat a) D []) None)) (zrange 0 n)).

(** The balanced dense read of the whole matrix, for ANY stored weight column (multiplicative, NaN = masked, counting
    as 0), set against the matrix that a balancing run with data filters [fs] equalises, when all these filters do is
    zero the cells [z] of the symmetric completion (no filter: Fmat_nil_symm; ignore_diags: Fmat_diags_symm). The
    nan-sum of row a over the other cells is the a-th row sum of diag(w) (Fmat fs) diag(w); a masked row is all NaN. *)
Theorem balanced_read_masked : forall fs (z : Z -> Z -> bool),
  (forall px i j, Fmat fs px i j == if z i j then 0 else inject_Z (symm px i j))%Q ->
  forall n epx off cs cols balance dw name w,
  ValidCSR n epx off -> Upper epx -> 1 <= cs -> zlen w = n ->
  weight_name balance = Some name -> lookup_weights cols name = Some w ->
  effective_divisive balance dw = false ->
  exists D, matrix_balanced epx off cs true Dense cols balance dw (0, n, 0, n) = Some (BDense D) /\
    forall a, 0 <= a < n ->
      (row_nansum_skip z D a (Z.to_nat n) == rowsum (Fmat fs (map snd epx)) (Z.to_nat n) (wq w) a)%Q /\
      (wnth w a = None -> forall b, 0 <= b < n -> nth (Z.to_nat b) (nth (Z.to_nat a) D []) None = None).
Proof.
  intros fs z HF n epx off cs cols balance dw name w HV HU Hcs Hw Hname Hlook Hdv.
  assert (Hn : 0 <= n) by (unfold zlen in Hw; lia).
  destruct (dense_balanced_full n epx off cs cols balance dw name w 0 n 0 n HV HU Hcs) as [D [HD Hcell]]; try lia; auto.
  exists D. split; [exact HD|]. intros a Ha. rewrite Hdv in Hcell. split.
  - unfold row_nansum_skip, rowsum. rewrite <- sumQ_scal. apply sumQ_ext. intros b Hb. apply in_zrange in Hb.
    rewrite HF. destruct (z a b); [ring|].
    rewrite (Hcell a b) by lia. rewrite !Z.add_0_l. unfold wt, adj.
    rewrite valq_cell, !qnth_wq. ring.
  - intros Hna b Hb. rewrite (Hcell a b) by lia. rewrite !Z.add_0_l. unfold wt, adj. rewrite Hna. reflexivity.
Qed.

(** C10 + C12: balance genome-wide with such filters until var < tol, store the rescaled weights, read the
    (UNFILTERED) matrix back with balance=True: every row of a retained bin with data sums, over the non-NaN cells
    that the filters left, to a value in [1/(1+eps), 1/(1-eps)]. *)
Theorem balanced_read_flat_masked : forall fs (z : Z -> Z -> bool),
  Forall keyfix fs -> Forall datnn fs ->
  (forall px i j, Fmat fs px i j == if z i j then 0 else inject_Z (symm px i j))%Q ->
  forall n epx off cs cols balance dw name w chunk tol fuel b bb mu v k eps,
  ValidCSR n epx off -> Upper epx -> 1 <= cs -> zlen w = n ->
  weight_name balance = Some name -> lookup_weights cols name = Some w ->
  effective_divisive balance dw = false ->
  let px := map snd epx in
  let n' := Z.to_nat n in
  chunk_ok chunk -> good_px n' px = true ->
  length b = n' -> NonNeg b ->
  ic_loop (margf_gw n' (balance_spans (zlen px) chunk) fs px) tol fuel b = Some (bb, Some mu, v, k) ->
  (v < tol)%Q -> (0 <= eps)%Q -> (eps < 1)%Q ->
  (nnz_rows (Fmat fs px) n' b * tol <= eps * eps * mu * mu)%Q ->
  StoredWeights w bb mu ->
  exists D, matrix_balanced epx off cs true Dense cols balance dw (0, n, 0, n) = Some (BDense D) /\
    forall a, 0 <= a < n -> ~ (rowsum (Fmat fs px) n' b a == 0)%Q ->
      (1 / (1 + eps) <= row_nansum_skip z D a n' /\ row_nansum_skip z D a n' <= 1 / (1 - eps))%Q.
Proof.
  intros fs z Hk Hd HF n epx off cs cols balance dw name w chunk tol fuel b bb mu v k eps HV HU Hcs Hw Hname Hlook Hdv px n'
         Hc Hg Hlb Hnb Hloop Hv He0 He1 HN Hst.
  destruct (balanced_read_masked fs z HF n epx off cs cols balance dw name w HV HU Hcs Hw Hname Hlook Hdv) as [D [HD Hrow]].
  exists D. split; [exact HD|]. intros a Ha Hdata.
  destruct (Hrow a Ha) as [E _]. fold px n' in E. rewrite E.
  assert (Hi : InR n' a) by (unfold InR, n'; lia).
  exact (loop_flatness_rescaled _ n' (Fmat_sym fs px) (Fmat_nonneg n' fs px Hd Hg) _ (gw_margof n' chunk fs px Hc Hg Hk)
           tol fuel b bb mu v k eps a (wq w) Hlb Hnb Hloop Hv He0 He1 HN Hst Hi Hdata).
Qed.

Lemma length_margf_cis : forall n c bf px full lo hi seg,
  0 <= lo -> lo <= hi -> hi <= Z.of_nat n -> length (margf_cis n c bf px full lo hi seg) = Z.to_nat (hi - lo).
Proof.
  intros. unfold margf_cis, slice. rewrite firstn_length, skipn_length, length_marg_of. lia.
Qed.

Lemma skipn_splice : forall (full seg : list Q) lo hi,
  0 <= lo -> lo <= hi -> hi <= zlen full -> length seg = Z.to_nat (hi - lo) ->
  skipn (Z.to_nat hi) (splice full lo hi seg) = skipn (Z.to_nat hi) full.
Proof.
  intros full seg lo hi H0 H1 H2 Hs. unfold splice, zlen in *.
  assert (L1 : length (firstn (Z.to_nat lo) full) = Z.to_nat lo) by (rewrite firstn_length; lia).
  rewrite skipn_app, L1. rewrite (skipn_all2 (firstn (Z.to_nat lo) full)) by lia. cbn [app].
  rewrite skipn_app, Hs. rewrite (skipn_all2 seg) by lia. cbn [app].
  replace (Z.to_nat hi - Z.to_nat lo - Z.to_nat (hi - lo))%nat with 0%nat by lia. reflexivity.
Qed.

(** the sequential driver over consecutive chromosome ranges: each chromosome's loop starts from its own slice of
    the INITIAL weights b0 (earlier chromosomes only rewrite their own positions) *)
Lemma cis_loop_chain_spec : forall o (n : nat) c bf px (b0 : list Q) ranges a e full rs,
  Chain a ranges e -> 0 <= a -> e <= Z.of_nat n -> length full = n -> length b0 = n ->
  skipn (Z.to_nat a) full = skipn (Z.to_nat a) b0 ->
  cis_loop o n c bf px full ranges = Some rs ->
  Forall2 (fun lohi r => exists full' bb s v k,
             length full' = n /\
             ic_loop (margf_cis n c bf px full' (fst lohi) (snd lohi)) (o_tol o) (o_iters o)
                     (slice b0 (fst lohi) (snd lohi)) = Some (bb, s, v, k) /\
             c_bias r = mark_nan s bb /\ c_scale r = s /\ c_var r = v /\ c_iters r = k) ranges rs.
Proof.
  intros o n c bf px b0 ranges a e full rs Hch. revert full rs.
  induction Hch as [a|a m e r Ham Hc IH]; intros full rs Ha He Hlf Hlb Hag Hloop; simpl in Hloop.
  - injection Hloop as <-. constructor.
  - pose proof (chain_le _ _ _ Hc) as Hme.
    assert (Esl : slice full a m = slice b0 a m) by (unfold slice; now rewrite Hag).
    rewrite Esl in Hloop.
    destruct (ic_loop (margf_cis n c bf px full a m) (o_tol o) (o_iters o) (slice b0 a m))
      as [[[[seg s] v] k]|] eqn:E; [|discriminate].
    destruct (cis_loop o n c bf px (splice full a m seg) r) as [rs'|] eqn:E2; [|discriminate].
    injection Hloop as <-.
    assert (Lseg : length seg = Z.to_nat (m - a)).
    { apply (ic_loop_length (margf_cis n c bf px full a m) (o_tol o) (Z.to_nat (m - a))) with
        (fuel := o_iters o) (b := slice b0 a m) (s := s) (v := v) (k := k); auto.
      - intros b _. apply length_margf_cis; lia.
      - unfold slice. rewrite firstn_length, skipn_length. lia. }
    constructor.
    + exists full, seg, s, v, k. cbn [fst snd c_bias c_scale c_var c_iters]. repeat split; auto.
    + apply (IH (splice full a m seg)); auto; try lia.
      * rewrite length_splice; unfold zlen; lia.
      * rewrite skipn_splice by (unfold zlen; lia).
        replace (Z.to_nat m) with (Z.to_nat a + Z.to_nat (m - a))%nat by lia.
        rewrite !BaseProofs.skipn_add. now rewrite Hag.
Qed.

Lemma nonneg_slice : forall (b : list Q) lo hi, 0 <= lo -> NonNeg b -> NonNeg (slice b lo hi).
Proof.
  intros b lo hi Hlo Hb i. unfold qnth.
  destruct (Nat.lt_ge_cases (Z.to_nat i) (length (slice b lo hi))) as [Hlt|Hge].
  - assert (Hk : (Z.to_nat i < Z.to_nat (hi - lo))%nat) by (unfold slice in Hlt; rewrite firstn_length in Hlt; lia).
    pose proof (qnth_slice b lo hi (Z.of_nat (Z.to_nat i)) Hlo ltac:(lia)) as E. unfold qnth in E.
    rewrite Nat2Z.id in E. rewrite E. apply Hb.
  - rewrite nth_overflow by lia. apply Qle_refl.
Qed.

Lemma Forall2_impl_in {A B} : forall (P Q : A -> B -> Prop) l l',
  Forall2 P l l' -> (forall x y, In x l -> P x y -> Q x y) -> Forall2 Q l l'.
Proof.
  intros P Q l l' H. induction H as [|x y l l' Hxy H IH]; intros Himp; constructor.
  - apply Himp; [now left | assumption].
  - apply IH. intros x0 y0 Hin. apply Himp. now right.
Qed.

(** chunksize=None means max(nnz, 1), so the effective chunk size of the cis-only partition is always >= 1 *)
Lemma eff_chunk_ge1 : forall o nnz, chunk_ok (o_chunk o) -> 1 <= eff_chunk o nnz.
Proof. intros o nnz H. unfold eff_chunk, chunk_ok in *. destruct (o_chunk o); lia. Qed.

(** the whole cis-only run of the model: for every chromosome [lo,hi) (bins with their own chromosome id, pixels
    sorted by bin1) and every bin i of it, the reported weight is NaN iff the bin is excluded by one of the
    documented filters or the chromosome has no remaining intra-chromosomal data; all other weights are positive *)
Theorem balance_cis_nan_set : forall o n chroms offsets px rs,
  o_cis o = true -> chunk_ok (o_chunk o) -> good_px n px = true -> rows_sorted px ->
  length (x0_bias n (o_x0 o)) = n -> NonNeg (x0_bias n (o_x0 o)) ->
  let ranges := combine (removelast offsets) (tl offsets) in
  Chain 0 ranges (Z.of_nat n) ->
  (forall lo hi, In (lo, hi) ranges -> BlockSep chroms n lo hi) ->
  balance o n chroms offsets px = Some rs ->
  let b0 := initial_bias o n chroms offsets px in
  Forall2 (fun lohi r =>
     let lo := fst lohi in let hi := snd lohi in
     forall i, lo <= i < hi ->
       (onth (c_bias r) (i - lo) = None <->
          AllZero (fun a b => Fmat (base_filters o chroms) px (lo + a) (lo + b)) (Z.to_nat (hi - lo)) (slice b0 lo hi) \/
          (qnth (x0_bias n (o_x0 o)) i == 0)%Q \/ masked_nnz o n chroms px i \/ masked_count o n chroms px i \/
          masked_mad o n chroms offsets px i \/ In i (o_black o)) /\
       (forall x, onth (c_bias r) (i - lo) = Some x -> (0 < x)%Q)) ranges rs.
Proof.
  intros o n chroms offsets px rs Hcis Hck Hg Hs Hx0 Hx0n ranges Hch Hsep Hbal b0.
  pose proof (eff_chunk_ge1 o (zlen px) Hck) as Hc.
  assert (Hnm : length (norm_marg (marg_of n (balance_spans (zlen px) (o_chunk o)) (base_filters o chroms) px) offsets) = n).
  { apply length_norm_marg; [apply length_marg_of | exact Hch]. }
  pose proof (initial_bias_length o n chroms offsets px Hx0 Hnm) as Lb.
  pose proof (initial_bias_nonneg o n chroms offsets px Hx0 Hnm Hx0n) as Nb.
  fold b0 in Lb, Nb.
  unfold balance in Hbal. rewrite Hcis in Hbal. fold b0 ranges in Hbal.
  pose proof (cis_loop_chain_spec o n (eff_chunk o (zlen px)) (base_filters o chroms) px b0 ranges 0 (Z.of_nat n) b0 rs
                Hch ltac:(lia) ltac:(lia) Lb Lb eq_refl Hbal) as HF.
  apply (Forall2_impl_in _ _ _ _ HF). intros [lo hi] r Hin1 Hr.
  cbn [fst snd]. destruct Hr as [full' [bb [s [v [k [Lf [Hloop [Hbias _]]]]]]]]. cbn [fst snd] in Hloop.
  destruct (chain_in_bounds _ _ _ lo hi Hch Hin1) as [B0 [B1 B2]].
  intros i Hi. rewrite Hbias.
  assert (Ls : length (slice b0 lo hi) = Z.to_nat (hi - lo)) by (unfold slice; rewrite firstn_length, skipn_length; lia).
  assert (Hi' : InR (Z.to_nat (hi - lo)) (i - lo)) by (unfold InR; lia).
  destruct (nan_set _ _ (fun a b => Fmat_nonneg n _ px (datnn_base_filters o chroms) Hg (lo + a) (lo + b)) _
              (cis_margof o chroms n (eff_chunk o (zlen px)) lo hi px full' Hcis Hc (Hsep lo hi Hin1) Hg Hs B0 B1 B2 Lf)
              (o_tol o) (o_iters o) (slice b0 lo hi) bb s v k (i - lo) Ls (nonneg_slice b0 lo hi B0 Nb) Hloop Hi')
    as [H1 H2].
  split.
  - rewrite H1. rewrite qnth_slice by lia. replace (lo + (i - lo)) with i by lia.
    unfold b0 at 2. rewrite (mask_rules o n chroms offsets px Hx0 Hnm i) by (unfold InR; lia). reflexivity.
  - intros x Hx. now destruct (H2 x Hx).
Qed.

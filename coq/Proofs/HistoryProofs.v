(** C02 — integration: the producers' theorems (C06 unordered ingestion, C07 merge, C08 coarsen,
    C09 zoom levels) take the place of the hypothesis [producers_ok] of IndexProofs.history_valid:
    [Step] has one rule per producer and [history_valid_all] is the invariant without that hypothesis
    (proved from create_stored and the producers' theorems, not as an instance of history_valid).
    Nothing here re-proves what the producers do; it shows that what their models store, indexed by
    the model of index_pixels, satisfies the schema predicate ValidCSR of Proofs/IndexProofs.v. *)
From Cooler Require Import Model.Merge Model.Coarsen Model.Index.
From Cooler Require Import Proofs.PixelsProofs Proofs.BinsProofs Proofs.MergeProofs Proofs.CoarsenProofs Proofs.IndexProofs.
From Cooler Require Model.Zoom Proofs.ZoomProofs.
From Coq Require Import Sorted ZifyBool.
Local Open Scope Z_scope.

(** the index the merge/ingest models store (Merge.index_of) is the counting index of C02 *)
Lemma index_of_offsets (n : nat) (px : list pixel) :
  Merge.index_of n px = offsets_of (Z.of_nat n) (map row px).
Proof.
  unfold Merge.index_of, offsets_of. replace (Z.to_nat (Z.of_nat n + 1)) with (S n) by lia.
  apply map_ext. intros b. unfold count_lt. now rewrite filter_map_swap, zlen_map.
Qed.

(** what the merger reads of a stored collection *)
Definition of_csr (c : Index.cooler) : mcool Z := {| mc_off := Index.bin1_offset c; mc_px := pixels_of c |}.

(** a valid collection is a valid input of the merger (C07's ValidIn) *)
Lemma valid_csr_in c : ValidCSR c -> ValidIn (Z.to_nat (nbins c)) (of_csr c).
Proof.
  intros Hv. destruct (validcsr_lens c Hv) as (L1 & L2 & L3).
  assert (Hrow : map row (pixels_of c) = bin1 c) by (apply pixels_rows; lia).
  assert (Hnb : 0 <= nbins c) by (rewrite <- (validcsr_nbins c Hv); apply zlen_nonneg).
  constructor; cbn [of_csr mc_off mc_px].
  - rewrite index_of_offsets, Z2Nat.id, Hrow by lia. exact (validcsr_bin1_offset c Hv).
  - apply MergeProofs.ssorted_rowsorted, validcsr_sorted, Hv.
  - rewrite Forall_forall. intros p Hp. apply (validcsr_inrange c Hv) in Hp. unfold rowof, row in *. lia.
Qed.

Lemma aggregate_keys_from (P : key -> Prop) (src : list pixel) :
  (forall p, In p src -> P (fst p)) -> forall p, In p (aggregate src) -> P (fst p).
Proof.
  intros H p Hp. destruct (aggregate_canon src) as (_ & K & _).
  assert (Hk : In (fst p) (keys (aggregate src))) by (apply in_map; exact Hp).
  apply K in Hk. unfold keys in Hk. apply in_map_iff in Hk. destruct Hk as (q & E & Hq).
  rewrite <- E. now apply H.
Qed.

Lemma allpx_of_csr (inputs : list Index.cooler) :
  allpx (map of_csr inputs) = concat (map pixels_of inputs).
Proof. unfold allpx. now rewrite map_map. Qed.

(** inputs of one merge: valid collections over one bin table and one storage mode *)
Definition SameAxes (nc : Z) (chroms : list Z) (symm : bool) (c : Index.cooler) : Prop :=
  nchroms c = nc /\ bin_chrom c = chroms /\ symmetric_upper c = symm.

(** What every producer hands to create(): the canonical aggregate of records whose keys are in range and, in
    symmetric mode, upper triangular.  Stored over a valid chromosome column it is a valid collection, and what
    the merger would read back of it is exactly (index_of, table). *)
Lemma store_canon_valid nc chroms symm src :
  0 <= nc -> NonDecr chroms -> (forall x, In x chroms -> 0 <= x < nc) ->
  (forall p, In p src -> (0 <= row p < zlen chroms /\ 0 <= col p < zlen chroms) /\ (symm = true -> row p <= col p)) ->
  exists c, create_model nc chroms (aggregate src) symm = Some c /\ ValidCSR c /\ pixels_of c = aggregate src /\
            SameAxes nc chroms symm c /\ nbins c = zlen chroms /\ of_csr c = mk_cool (length chroms) (aggregate src).
Proof.
  intros Hnc Hcn Hcr Hk.
  pose proof (aggregate_keys_from (fun k => (0 <= fst k < zlen chroms /\ 0 <= snd k < zlen chroms) /\ (symm = true -> fst k <= snd k))
                src Hk) as Hk'.
  destruct (create_stored nc chroms (aggregate src) symm) as [E Hv]; try assumption.
  - now destruct (aggregate_canon src).
  - intros p Hp. now apply Hk'.
  - intros Hsy p Hp. now apply Hk'.
  - exists (stored nc chroms (aggregate src) symm). split; [exact E|]. split; [exact Hv|].
    unfold of_csr, mk_cool. rewrite pixels_of_stored, index_of_offsets. repeat split.
Qed.

(** merge_coolers on valid inputs (model Merge.merge_g: CoolerMerger + validate_pixels + create) never
    fails, stores the canonical aggregate of all input pixels, and that table with the index
    index_pixels computes is a valid collection over the same axes — for every buffer size *)
Theorem merge_valid nc chroms symm (inputs : list Index.cooler) buf :
  inputs <> [] -> 1 <= zlen chroms -> 0 <= nc -> 0 <= buf ->
  Forall ValidCSR inputs -> Forall (SameAxes nc chroms symm) inputs ->
  let n := length chroms in
  let o := {| o_bounds := true; o_triu := symm; o_dup := true; o_sort := false |} in
  let out := aggregate (concat (map pixels_of inputs)) in
  merge_g n o (fun _ => true) sumZ (map of_csr inputs) buf = Ok (mk_cool n out) /\
  exists c, create_model nc chroms out symm = Some c /\ ValidCSR c /\ pixels_of c = out /\
            SameAxes nc chroms symm c /\ of_csr c = mk_cool n out.
Proof.
  intros Hne Hn Hnc Hb HV HA. cbv zeta. rewrite Forall_forall in HV, HA.
  assert (Hnb : forall c, In c inputs -> nbins c = zlen chroms).
  { intros c Hc. destruct (HA c Hc) as (_ & <- & _). symmetry. apply validcsr_nbins, HV, Hc. }
  assert (Hkeys : forall p, In p (concat (map pixels_of inputs)) ->
            (0 <= row p < zlen chroms /\ 0 <= col p < zlen chroms) /\ (symm = true -> row p <= col p)).
  { intros p (l & (c & <- & Hc)%in_map_iff & Hp)%in_concat. rewrite <- (Hnb c Hc).
    destruct (HA c Hc) as (_ & _ & <-). split; [apply (validcsr_inrange c (HV c Hc)), Hp|].
    intros Hsy. apply (validcsr_upper c (HV c Hc) Hsy), Hp. }
  split.
  - rewrite <- groupby_sum_aggregate, <- allpx_of_csr. apply merge_g_total; auto.
    + unfold zlen in Hn. lia.
    + now destruct inputs.
    + rewrite Forall_map, Forall_forall. intros c Hc. rewrite <- (Nat2Z.id (length chroms)).
      fold (zlen chroms). rewrite <- (Hnb c Hc). now apply valid_csr_in, HV.
    + rewrite allpx_of_csr, Forall_forall. intros p Hp. destruct (Hkeys p Hp) as [Hr Hu]. split; [intros _; exact Hr|exact Hu].
  - (* the chromosome column is that of any input *)
    destruct inputs as [|c0 rest]; [contradiction|]. destruct (HA c0 (or_introl eq_refl)) as (Hn0 & Hch0 & _).
    destruct (validcsr_chroms c0 (HV c0 (or_introl eq_refl))) as [Hcn Hcr].
    rewrite Hch0 in Hcn. rewrite Hch0, Hn0 in Hcr.
    destruct (store_canon_valid nc chroms symm _ Hnc Hcn Hcr Hkeys) as (c & Hc). exists c. tauto.
Qed.

(** what create_cooler(ordered=False) demands of one input chunk: bin ids in range, upper triangular
    in symmetric mode, no duplicate pixel inside the chunk when dupcheck is on, rows non-decreasing
    unless ensure_sorted is requested (C06's precondition) *)
Definition GoodChunk (n : nat) (symm : bool) (o : copts) (ch : list pixel) : Prop :=
  (forall p, In p ch -> (0 <= row p < Z.of_nat n /\ 0 <= col p < Z.of_nat n) /\ (symm = true -> row p <= col p)) /\
  (o_dup o = true -> has_dup ch = false) /\
  (o_sort o = true \/ MergeProofs.RowSorted ch).

(** create_from_unordered (model Merge.unordered_g: one temporary cooler per chunk, optional first merge
    pass over the edge list the code computes from max_merge, final merge) on such chunks never fails,
    stores the canonical aggregate of all records, and that table with the index index_pixels computes
    is a valid collection — for every chunking, chunk order, mergebuf >= 0 and max_merge *)
Theorem unordered_valid nc chroms symm o (chunks : list (list pixel)) buf max_merge :
  chunks <> [] -> 1 <= zlen chroms -> 0 <= nc -> 0 <= buf ->
  NonDecr chroms -> (forall x, In x chroms -> 0 <= x < nc) ->
  (o_triu o = true -> symm = true) ->
  let n := length chroms in
  Forall (GoodChunk n symm o) chunks ->
  let out := aggregate (concat chunks) in
  unordered_g n o (fun _ => true) sumZ chunks buf (unordered_edges (length chunks) max_merge) = Ok (mk_cool n out) /\
  exists c, create_model nc chroms out symm = Some c /\ ValidCSR c /\ pixels_of c = out /\
            SameAxes nc chroms symm c /\ of_csr c = mk_cool n out.
Proof.
  intros Hne Hn Hnc Hb Hcn Hcr Htri. cbv zeta. set (n := length chroms). intros HG.
  assert (Hn1 : (1 <= n)%nat) by (unfold n; unfold zlen in Hn; lia).
  assert (Hkeys : forall p, In p (concat chunks) ->
            (0 <= fst (fst p) < zlen chroms /\ 0 <= snd (fst p) < zlen chroms) /\ (symm = true -> fst (fst p) <= snd (fst p))).
  { intros p Hp. apply in_concat in Hp. destruct Hp as (ch & Hch & Hp). rewrite Forall_forall in HG.
    destruct (HG ch Hch) as (Hk & _). apply (Hk p Hp). }
  split.
  - apply unordered_correct; auto.
    + rewrite Forall_forall in HG |- *. intros ch Hch. destruct (HG ch Hch) as (Hk & Hd & Hs).
      split; [|split; [exact Hd|split; [exact Hs|]]].
      * rewrite Forall_forall. intros p Hp. destruct (Hk p Hp) as [Hr Hu]. unfold KeyOK, row, col in *.
        split; [intros _; exact Hr|intros Ht; apply Hu, Htri, Ht].
      * rewrite Forall_forall. intros p Hp. destruct (Hk p Hp) as [Hr _]. unfold rowof, row in *. lia.
    + apply unordered_edges_ok. destruct chunks; [contradiction|cbn [length]; lia].
  - destruct (store_canon_valid nc chroms symm _ Hnc Hcn Hcr Hkeys) as (c & Hc). exists c. tauto.
Qed.

Lemma nondecr_const (l : list Z) v : (forall x, In x l -> x = v) -> NonDecr l.
Proof.
  unfold NonDecr. induction l as [|x t IH]; intros H; constructor.
  - apply IH. intros y Hy. apply H. now right.
  - rewrite Forall_forall. intros y Hy. rewrite (H x (or_introl eq_refl)), (H y (or_intror Hy)). lia.
Qed.

(** the chromosome column of a valid bin table (chromosome blocks in id order) is non-decreasing
    with ids in [0, number of chromosomes) *)
Lemma chroms_from (bl : list (list bin)) : forall off,
  (forall i blk, nth_error bl i = Some blk -> forall x, In x blk -> bchrom x = off + Z.of_nat i) ->
  NonDecr (map bchrom (concat bl)) /\ (forall v, In v (map bchrom (concat bl)) -> off <= v < off + zlen bl).
Proof.
  induction bl as [|blk r IH]; intros off H; cbn [concat map].
  - split; [constructor|intros v []].
  - destruct (IH (off + 1)) as [IH1 IH2].
    { intros i b Hi x Hx. rewrite (H (S i) b Hi x Hx). lia. }
    assert (Hb : forall v, In v (map bchrom blk) -> v = off).
    { intros v Hv. apply in_map_iff in Hv. destruct Hv as (x & <- & Hx). rewrite (H O blk eq_refl x Hx). lia. }
    rewrite map_app, zlen_cons. pose proof (zlen_nonneg r). split.
    + apply (ssorted_app Z.le); [now apply nondecr_const with (v := off)|exact IH1|].
      intros x y Hx Hy. rewrite (Hb x Hx). apply IH2 in Hy. lia.
    + intros v Hv. apply in_app_or in Hv. destruct Hv as [Hv|Hv]; [rewrite (Hb v Hv); lia|apply IH2 in Hv; lia].
Qed.

Lemma valid_blocks_chroms blocks : ValidBlocks blocks ->
  NonDecr (map bchrom (concat blocks)) /\ (forall v, In v (map bchrom (concat blocks)) -> 0 <= v < zlen blocks).
Proof.
  intros HV. destruct (chroms_from blocks 0) as [A B].
  - intros i blk Hi x Hx. destruct (HV i blk Hi) as [_ HT]. rewrite (tiled_chrom _ _ _ _ HT Hx). lia.
  - split; [exact A|]. intros v Hv. apply B in Hv. lia.
Qed.

Lemma itf_sorted k lens : 1 <= k -> Forall (fun n => 0 <= n) lens ->
  forall off, NonDecr (index_table_from off k lens).
Proof.
  intros Hk. induction 1 as [|n r Hn HF IH]; intros off; cbn [index_table_from]; [constructor|].
  apply (ssorted_app Z.le); [|apply IH|].
  - apply nondecr_map_zrange. intros a b Hab. pose proof (Z.div_le_mono a b k ltac:(lia) Hab). lia.
  - intros x y Hx Hy. apply in_map_iff in Hx. destruct Hx as (m & <- & Hm). apply in_zrange in Hm.
    apply (itf_lower k r Hk HF) in Hy. pose proof (div_lt_cdiv m n k ltac:(lia) ltac:(lia)). lia.
Qed.

(** the old-bin -> new-bin table is non-decreasing, so re-keying keeps pixels upper triangular *)
Lemma index_table_mono lens k i j : 1 <= k -> Forall (fun n => 0 <= n) lens -> 0 <= i <= j -> j < sumZ lens ->
  znth (index_table lens k) i 0 <= znth (index_table lens k) j 0.
Proof.
  intros Hk HF Hij Hj. unfold znth, index_table. apply sorted_le_nth; [now apply itf_sorted|].
  pose proof (itf_length k lens HF 0) as Hl. unfold zlen in Hl. lia.
Qed.

(** an entry of a file history: the bin table (as chromosome blocks) and the stored collection *)
Definition EntryOK (e : list (list bin) * Index.cooler) : Prop :=
  let '(blocks, c) := e in
  ValidBlocks blocks /\ ValidCSR c /\ bin_chrom c = map bchrom (concat blocks) /\ nchroms c = zlen blocks.

Lemma entry_inrange blocks c : EntryOK (blocks, c) -> InRange (zlen (concat blocks)) (pixels_of c).
Proof.
  intros (_ & Hv & Hch & _).
  unfold InRange. rewrite Forall_forall, <- (zlen_map bchrom), <- Hch, (validcsr_nbins c Hv). exact (validcsr_inrange c Hv).
Qed.

(** coarsen_cooler (model Coarsen.coarsen_cooler: new bin table, chunked re-binning stream) applied to a
    valid collection: the new table is a valid tiling, the stored pixel table is the canonical aggregate of
    the re-keyed pixels, and with the indexes index_bins / index_pixels compute it is a valid collection —
    for every factor k >= 1, chunk size and batch size *)
Theorem coarsen_valid blocks c k chunksize batchsize :
  EntryOK (blocks, c) -> 1 <= k -> 1 <= chunksize -> 1 <= batchsize ->
  let sizes := map chrom_end blocks in
  let r := coarsen_cooler (concat blocks) sizes (pixels_of c) k chunksize batchsize in
  let nb := map (coarsen_block k) blocks in
  fst r = concat nb /\
  snd r = aggregate (map (rekey (index_table (map zlen blocks) k)) (pixels_of c)) /\
  exists c', create_model (zlen nb) (map bchrom (concat nb)) (snd r) (symmetric_upper c) = Some c' /\
             EntryOK (nb, c') /\ pixels_of c' = snd r /\ symmetric_upper c' = symmetric_upper c.
Proof.
  intros He Hk Hcs Hbs. cbv zeta. pose proof (entry_inrange blocks c He) as Hin.
  destruct He as (HB & Hv & _). pose proof (validcsr_sorted c Hv) as Hs. pose proof (validcsr_upper c Hv) as Hu.
  destruct (coarsen_bins_spec blocks k Hk HB) as (Eb & HBn & _ & Hlens).
  cbn [coarsen_cooler fst snd].
  rewrite (coarsen_canon blocks (pixels_of c) k chunksize batchsize Hk Hcs Hbs HB
             (ssorted_rows _ Hs) (inrange_rows _ _ Hin)).
  split; [exact Eb|]. split; [reflexivity|].
  set (lens := map zlen blocks).
  assert (Hlnn : Forall (fun n => 0 <= n) lens).
  { unfold lens. rewrite Forall_map, Forall_forall. intros b _. apply zlen_nonneg. }
  assert (Hnewn : zlen (map bchrom (concat (map (coarsen_block k) blocks))) = sumZ (map (fun n => cdiv n k) lens)).
  { rewrite zlen_map, zlen_concat, Hlens. unfold lens. now rewrite map_map. }
  rewrite zlen_concat in Hin. fold lens in Hin. unfold InRange in Hin. rewrite Forall_forall in Hin.
  destruct (valid_blocks_chroms _ HBn) as [Hcn Hcr].
  destruct (store_canon_valid (zlen (map (coarsen_block k) blocks)) (map bchrom (concat (map (coarsen_block k) blocks)))
              (symmetric_upper c) (map (rekey (index_table lens k)) (pixels_of c)) (zlen_nonneg _) Hcn Hcr)
    as (c' & Ec & Hv' & Hp' & (Hb2 & Hb3 & Hb4) & _).
  - (* the old-bin -> new-bin table maps into the new range and is non-decreasing *)
    intros q (p0 & <- & Hp0)%in_map_iff. destruct (Hin p0 Hp0) as [Hr0 Hc0]. rewrite Hnewn.
    unfold rekey, row, col in *. cbn [fst snd]. split; [split; apply index_table_range; auto|].
    intros Hsy. specialize (Hu Hsy p0 Hp0). apply index_table_mono; auto; lia.
  - exists c'. exact (conj Ec (conj (conj HBn (conj Hv' (conj Hb3 Hb2))) (conj Hp' Hb4))).
Qed.

Definition entry := (list (list bin) * Index.cooler)%type.
Definition chroms_of_blocks (blocks : list (list bin)) : list Z := map bchrom (concat blocks).

Lemma blocks_nonempty blocks : ValidBlocks blocks -> blocks <> [] -> 1 <= zlen (chroms_of_blocks blocks).
Proof.
  intros HV Hne. destruct blocks as [|b r]; [contradiction|].
  destruct (HV O b eq_refl) as [Hb _]. unfold chroms_of_blocks. cbn [concat]. rewrite zlen_map, zlen_app.
  destruct b; [contradiction|]. rewrite zlen_cons. pose proof (zlen_nonneg b0). pose proof (zlen_nonneg (concat r)). lia.
Qed.

(** One producing operation appends one collection to the history.  The premises of each rule are the
    documented preconditions on the USER's input plus "this is what the producer's model computed";
    nothing is assumed about the producer's output.
    - create:    create_cooler on a strictly sorted stream cut into chunks (ordered=True / a data frame)
    - unordered: create_cooler(ordered=False), any chunking / mergebuf / max_merge
    - merge:     merge_coolers of collections already in the history that share bin table and storage mode
    - coarsen:   coarsen_cooler of a collection already in the history (also one zoomify level: by
                 C09_zoom_level_eq_direct every zoom level is the direct coarsening of a base)        *)
Inductive Step : list entry -> list entry -> Prop :=
| S_create st blocks symm (chunks : list (list pixel)) c :
    ValidBlocks blocks ->
    SSorted (concat chunks) ->
    (forall p, In p (concat chunks) -> 0 <= row p < zlen (chroms_of_blocks blocks) /\ 0 <= col p < zlen (chroms_of_blocks blocks)) ->
    (symm = true -> forall p, In p (concat chunks) -> row p <= col p) ->
    create_chunked (zlen blocks) (chroms_of_blocks blocks) chunks symm = Some c ->
    Step st (st ++ [(blocks, c)])
| S_unordered st blocks symm o (chunks : list (list pixel)) buf max_merge m c :
    ValidBlocks blocks -> blocks <> [] -> chunks <> [] -> 0 <= buf ->
    (o_triu o = true -> symm = true) ->
    Forall (GoodChunk (length (chroms_of_blocks blocks)) symm o) chunks ->
    unordered_g (length (chroms_of_blocks blocks)) o (fun _ => true) sumZ chunks buf
                (unordered_edges (length chunks) max_merge) = Ok m ->
    create_model (zlen blocks) (chroms_of_blocks blocks) (mc_px m) symm = Some c ->
    Step st (st ++ [(blocks, c)])
| S_merge st blocks symm (ins : list entry) buf m c :
    ins <> [] -> blocks <> [] -> 0 <= buf ->
    Forall (fun e => In e st /\ fst e = blocks /\ symmetric_upper (snd e) = symm) ins ->
    merge_g (length (chroms_of_blocks blocks))
            {| o_bounds := true; o_triu := symm; o_dup := true; o_sort := false |}
            (fun _ => true) sumZ (map (fun e => of_csr (snd e)) ins) buf = Ok m ->
    create_model (zlen blocks) (chroms_of_blocks blocks) (mc_px m) symm = Some c ->
    Step st (st ++ [(blocks, c)])
| S_coarsen st blocks c0 k chunksize batchsize c :
    In (blocks, c0) st -> 1 <= k -> 1 <= chunksize -> 1 <= batchsize ->
    create_model (zlen (map (coarsen_block k) blocks)) (chroms_of_blocks (map (coarsen_block k) blocks))
                 (snd (coarsen_cooler (concat blocks) (map chrom_end blocks) (pixels_of c0) k chunksize batchsize))
                 (symmetric_upper c0) = Some c ->
    Step st (st ++ [(map (coarsen_block k) blocks, c)]).

Inductive Steps : list entry -> list entry -> Prop :=
| Steps_nil st : Steps st st
| Steps_cons st st' st'' : Step st st' -> Steps st' st'' -> Steps st st''.

(** the entry a producer appends: its model returned the table the producer theorem names, and create() was run on it *)
Lemma appended_entry_ok blocks symm n out (r : res (mcool Z)) m c :
  ValidBlocks blocks ->
  r = Ok (mk_cool n out) /\
  (exists c', create_model (zlen blocks) (chroms_of_blocks blocks) out symm = Some c' /\ ValidCSR c' /\ pixels_of c' = out /\
              SameAxes (zlen blocks) (chroms_of_blocks blocks) symm c' /\ of_csr c' = mk_cool n out) ->
  r = Ok m -> create_model (zlen blocks) (chroms_of_blocks blocks) (mc_px m) symm = Some c -> EntryOK (blocks, c).
Proof.
  intros HB [-> (c' & Ec' & Hv & _ & (Hn & Hc & _) & _)] [= <-] Ec. cbn [mc_px mk_cool] in Ec.
  rewrite Ec in Ec'. injection Ec' as <-. unfold EntryOK. auto.
Qed.

Lemma step_valid st st' : Forall EntryOK st -> Step st st' -> Forall EntryOK st'.
Proof.
  intros HS H. destruct H as
    [st blocks symm chunks c HB Hs Hr Hu Ec
    |st blocks symm o chunks buf mm m c HB Hne Hcne Hb Ht HG Eu Ec
    |st blocks symm ins buf m c Hine Hne Hb Hins Em Ec
    |st blocks c0 k cs bs c Hin Hk Hcs Hbs Ec];
  apply Forall_app; (split; [exact HS|]); (constructor; [|constructor]).
  (* each rule appends one entry; it remains to show that entry EntryOK *)
  - destruct (valid_blocks_chroms blocks HB) as [Hcn Hcr]. rewrite create_chunked_eq in Ec.
    destruct (create_stored (zlen blocks) (chroms_of_blocks blocks) (concat chunks) symm (zlen_nonneg _) Hcn Hcr Hs Hr Hu) as [E Hv].
    rewrite Ec in E. injection E as ->. now split; [|split].
  - destruct (valid_blocks_chroms blocks HB) as [Hcn Hcr].
    exact (appended_entry_ok blocks symm _ _ _ m c HB
             (unordered_valid (zlen blocks) (chroms_of_blocks blocks) symm o chunks buf mm Hcne
                (blocks_nonempty blocks HB Hne) (zlen_nonneg _) Hb Hcn Hcr Ht HG) Eu Ec).
  - rewrite Forall_forall in HS, Hins.
    assert (Hent : forall e, In e ins -> EntryOK (blocks, snd e) /\ symmetric_upper (snd e) = symm).
    { intros [b0 c0] He. destruct (Hins _ He) as (Hin & Hbl & Hsy). cbn [fst] in Hbl. subst b0. split; [exact (HS _ Hin)|exact Hsy]. }
    assert (HBk : ValidBlocks blocks) by (destruct ins as [|e0 r]; [contradiction|]; now destruct (Hent e0 (or_introl eq_refl)) as [[] _]).
    destruct (valid_blocks_chroms blocks HBk) as [Hcn Hcr]. rewrite <- map_map in Em.
    assert (Hne' : map snd ins <> []) by now destruct ins.
    assert (HVs : Forall ValidCSR (map snd ins)).
    { rewrite Forall_map, Forall_forall. intros e He. now destruct (Hent e He) as [(_ & Hv0 & _) _]. }
    assert (HAs : Forall (SameAxes (zlen blocks) (chroms_of_blocks blocks) symm) (map snd ins)).
    { rewrite Forall_map, Forall_forall. intros e He. destruct (Hent e He) as [(_ & _ & Hch & Hnc) Hsy]. unfold SameAxes. auto. }
    exact (appended_entry_ok blocks symm _ _ _ m c HBk
             (merge_valid (zlen blocks) (chroms_of_blocks blocks) symm (map snd ins) buf Hne'
                (blocks_nonempty blocks HBk Hne) (zlen_nonneg _) Hb HVs HAs) Em Ec).
  - rewrite Forall_forall in HS. pose proof (HS _ Hin) as He.
    destruct (coarsen_valid blocks c0 k cs bs He Hk Hcs Hbs) as (_ & _ & c' & Ec' & He' & _).
    unfold chroms_of_blocks in Ec. rewrite Ec in Ec'. inversion Ec'; subst c'. exact He'.
Qed.

(** C02 over histories, with no hypothesis about the producers: every collection written along any
    sequence of create / unordered-create / merge / coarsen (zoom level) operations, starting from
    nothing, is a valid collection over a valid bin table *)
Theorem history_valid_all st0 st : Forall EntryOK st0 -> Steps st0 st -> Forall EntryOK st.
Proof. intros H0 HS. induction HS as [|st st' st'' H1 _ IH]; [exact H0|]. apply IH. eapply step_valid; eauto. Qed.

Corollary history_from_nothing st : Steps [] st -> Forall (fun e => ValidCSR (snd e)) st.
Proof.
  intros HS. pose proof (history_valid_all [] st (Forall_nil _) HS) as H.
  eapply Forall_impl; [|exact H]. intros [b c] He. now destruct He as (_ & Hv & _).
Qed.

(** executable form of the chunk precondition *)
Definition goodchunk_b (n : nat) (symm : bool) (o : copts) (ch : list pixel) : bool :=
  inrange_b (Z.of_nat n) ch && (if symm then upper_b ch else true)
  && (negb (o_dup o) || negb (has_dup ch)) && (o_sort o || nondecr_b (map MergeProofs.rowof ch)).
Lemma goodchunk_b_sound n symm o ch : goodchunk_b n symm o ch = true -> GoodChunk n symm o ch.
Proof.
  unfold goodchunk_b, GoodChunk. rewrite !andb_true_iff, !orb_true_iff, inrange_b_spec, nondecr_b_spec.
  intros (((Hr & Hu) & Hd) & Hs). split; [|split].
  - intros p Hp. split; [now apply Hr|]. intros ->. rewrite upper_b_spec in Hu. now apply Hu.
  - intros Hdup. destruct Hd as [Hd|Hd]; [rewrite Hdup in Hd; discriminate|]. now destruct (has_dup ch).
  - exact Hs.
Qed.

(** A concrete history.  [force] / [force_m] take the result out of an option / a res (with a dummy for the failure
    that does not occur), so that the collections hx_c1 .. hx_c4 are values computed by the models. *)
Definition force (o : option Index.cooler) : Index.cooler :=
  match o with Some c => c | None => mkCooler 0 0 [] [] [] [] [] [] 0 0 true end.
Definition force_m (r : res (mcool Z)) : mcool Z :=
  match r with Ok m => m | Err _ => {| mc_off := []; mc_px := [] |} end.

Definition hx_blocks : list (list bin) := [[(0,0,10);(0,10,20);(0,20,25)]; [(1,0,7)]].
Definition hx_chunks1 : list (list pixel) := [[((0,0),1); ((0,2),3)]; []; [((3,3),4)]].
Definition hx_chunks2 : list (list pixel) := [[((2,3),1); ((3,3),1)]; [((0,1),5); ((2,3),2)]; []].
Definition hx_o : copts := {| o_bounds := true; o_triu := true; o_dup := true; o_sort := false |}.
Definition hx_c1 : Index.cooler :=
  Eval vm_compute in force (create_chunked 2 (chroms_of_blocks hx_blocks) hx_chunks1 true).
Definition hx_m2 : mcool Z :=
  Eval vm_compute in force_m (unordered_g 4 hx_o (fun _ => true) sumZ hx_chunks2 1 (unordered_edges 3 1)).
Definition hx_c2 : Index.cooler :=
  Eval vm_compute in force (create_model 2 (chroms_of_blocks hx_blocks) (mc_px hx_m2) true).
Definition hx_m3 : mcool Z :=
  Eval vm_compute in force_m (merge_g 4 hx_o (fun _ => true) sumZ [of_csr hx_c1; of_csr hx_c2] 2).
Definition hx_c3 : Index.cooler :=
  Eval vm_compute in force (create_model 2 (chroms_of_blocks hx_blocks) (mc_px hx_m3) true).
Definition hx_c4 : Index.cooler :=
  Eval vm_compute in force (create_model 2 (chroms_of_blocks (map (coarsen_block 2) hx_blocks))
     (snd (coarsen_cooler (concat hx_blocks) (map chrom_end hx_blocks) (pixels_of hx_c3) 2 1 1)) true).

(** create -> unordered create -> merge of the two -> coarsen of the merge: a history of length 4 exists,
    its last collection holds the coarsened merged matrix and passes the executable checker *)
Lemma history_example :
  Steps [] [(hx_blocks, hx_c1); (hx_blocks, hx_c2); (hx_blocks, hx_c3); (map (coarsen_block 2) hx_blocks, hx_c4)] /\
  pixels_of hx_c3 = [((0,0),1); ((0,1),5); ((0,2),3); ((2,3),3); ((3,3),5)] /\
  pixels_of hx_c4 = [((0,0),6); ((0,1),3); ((1,2),3); ((2,2),5)] /\
  valid_csr_b hx_c4 = true.
Proof.
  split; [|vm_compute; repeat split; reflexivity].
  eapply Steps_cons.
  { apply (S_create [] hx_blocks true hx_chunks1 hx_c1).
    - apply valid_blocks_b_sound. reflexivity.
    - apply ssorted_b_spec. reflexivity.
    - apply inrange_b_spec. reflexivity.
    - intros _. apply upper_b_spec. reflexivity.
    - reflexivity. }
  eapply Steps_cons.
  { apply (S_unordered _ hx_blocks true hx_o hx_chunks2 1 1 hx_m2 hx_c2).
    - apply valid_blocks_b_sound. reflexivity.
    - discriminate.
    - discriminate.
    - lia.
    - reflexivity.
    - repeat (constructor; [apply goodchunk_b_sound; reflexivity|]). constructor.
    - reflexivity.
    - reflexivity. }
  eapply Steps_cons.
  { apply (S_merge _ hx_blocks true [(hx_blocks, hx_c1); (hx_blocks, hx_c2)] 2 hx_m3 hx_c3).
    - discriminate.
    - discriminate.
    - lia.
    - constructor; [split; [left; reflexivity|split; reflexivity]|].
      constructor; [split; [right; left; reflexivity|split; reflexivity]|]. constructor.
    - reflexivity.
    - reflexivity. }
  eapply Steps_cons.
  { apply (S_coarsen _ hx_blocks hx_c3 2 1 1 hx_c4); try lia.
    - cbn. auto.
    - reflexivity. }
  apply Steps_nil.
Qed.

(** what zoomify reads of / writes for a history entry *)
Definition as_zoom (e : entry) : Zoom.cooler := (concat (fst e), map chrom_end (fst e), pixels_of (snd e)).

Lemma entry_validcooler e : EntryOK e -> ZoomProofs.ValidCooler (as_zoom e).
Proof.
  destruct e as [blocks c]. intros He. pose proof (entry_inrange blocks c He) as Hin.
  destruct He as (HB & Hv & _). exists blocks. unfold as_zoom. cbn.
  pose proof (ssorted_rows _ (validcsr_sorted c Hv)). auto 6.
Qed.

(** one coarsen step of the history stores what zoomify's coarsening of the entry computes *)
Lemma coarsen_step_zoom blocks c0 k cs bs : EntryOK (blocks, c0) -> 1 <= k -> 1 <= cs -> 1 <= bs ->
  exists e, EntryOK e /\ as_zoom e = Zoom.coarsen_c (as_zoom (blocks, c0)) k cs bs /\
            Step [(blocks, c0)] ([(blocks, c0)] ++ [e]).
Proof.
  intros He Hk Hcs Hbs.
  destruct (coarsen_valid blocks c0 k cs bs He Hk Hcs Hbs) as (E1 & _ & c' & Ec & He' & Hp' & _).
  destruct He as (HB & _). destruct (coarsen_bins_spec blocks k Hk HB) as (_ & _ & Hends & _).
  exists (map (coarsen_block k) blocks, c'). split; [exact He'|]. split.
  - unfold Zoom.coarsen_c, as_zoom, Zoom.c_bins, Zoom.c_sizes, Zoom.c_px. cbn [fst snd coarsen_cooler] in *.
    now rewrite E1, Hends, Hp'.
  - apply (S_coarsen [(blocks, c0)] blocks c0 k cs bs c'); try assumption. now left.
Qed.

(** every level zoomify_cooler writes from valid base collections is a base copied as it is, or what one
    coarsen step of the history stores for a base — hence a valid collection (C09_zoom_level_eq_direct +
    coarsen_valid) *)
Theorem zoom_levels_valid (ebases : list (Z * entry)) res cs bs lv :
  1 <= cs -> 1 <= bs -> ZoomProofs.Positive res -> ZoomProofs.Positive (map fst ebases) ->
  Forall (fun be => EntryOK (snd be)) ebases ->
  Zoom.zoomify_cooler (map (fun be => (fst be, as_zoom (snd be))) ebases) res cs bs = Some lv ->
  forall r zc, Zoom.lookup r lv = Some zc ->
    exists e, EntryOK e /\ zc = as_zoom e /\
      ((exists b, In (b, e) ebases) \/
       (exists b e0 k, In (b, e0) ebases /\ 2 <= k /\ r = b * k /\ Step [e0] ([e0] ++ [e]))).
Proof.
  intros Hcs Hbs Hres Hbpos HE Hz r zc Hl. rewrite Forall_forall in HE.
  set (bases := map (fun be => (fst be, as_zoom (snd be))) ebases) in *.
  assert (Hin : forall b c, In (b, c) bases -> exists e, In (b, e) ebases /\ c = as_zoom e /\ EntryOK e).
  { intros b c ([b' e] & [= <- <-] & Hbe)%in_map_iff. exists e. split; [exact Hbe|]. split; [reflexivity|exact (HE _ Hbe)]. }
  assert (Hbd : forall b c, Zoom.lookup b (Zoom.base_dict bases) = Some c ->
                  exists e, In (b, e) ebases /\ c = as_zoom e /\ EntryOK e).
  { intros b c H%ZoomProofs.lookup_in. apply Hin. unfold Zoom.base_dict in H. now apply in_rev in H. }
  destruct (ZoomProofs.zoom_level_eq_direct bases res cs bs Hcs Hbs Hres) as (H1 & _).
  - unfold bases. now rewrite map_map.
  - intros b c (e & _ & -> & He)%Hin. now apply entry_validcooler.
  - destruct (H1 lv Hz) as (_ & _ & H3).
    destruct (H3 r zc Hl) as ([(_ & Hb)|(_ & b & cb & k & _ & Hb & Hk & Hr & Hc)] & _).
    + apply Hbd in Hb as (e & Hbe & -> & He). exists e. eauto 6.
    + apply Hbd in Hb as ([blocks c0] & Hbe & -> & He).
      destruct (coarsen_step_zoom blocks c0 k cs bs He ltac:(lia) Hcs Hbs) as (e & He' & Ez & Hst).
      exists e. rewrite (Hc cs bs Hcs Hbs). split; [exact He'|]. split; [now symmetry|].
      right. exists b, (blocks, c0), k. auto.
Qed.

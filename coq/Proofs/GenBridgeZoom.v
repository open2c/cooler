(** Tie between the inner search loop of get_multiplier_sequence as TRANSLATED from _reduce.py on every run
    ([Gen.multseq_scan]: `while p >= 0: if target % resn[p] == 0: ...; break / else: p -= 1`, index based, fuelled) and
    the hand model's [scan_down] over the reversed prefix.  The step from there to [pred_mult] and
    [Gen.multseq_start] is made in Props/C09.v ([C09_source_search_loop_is_model]); the statements around the loop
    are pinned ([Gen.multseq_source_pins]). *)
From Cooler Require Import Model.Zoom Gen.Translated Proofs.BaseProofs.
From Coq Require Import Lia.
Open Scope Z_scope.

Lemma gen_scan_eq_scan_down resn t : forall k, (k <= length resn)%nat ->
  Gen.multseq_scan (S k) resn t (Z.of_nat k - 1) = scan_down t (rev (firstn k resn)) (Z.of_nat k - 1).
Proof.
  induction k as [|k IH]; intro Hk.
  - reflexivity.
  - cbn [Gen.multseq_scan]. replace (Z.of_nat (S k) - 1) with (Z.of_nat k) by lia.
    replace (Z.of_nat k >=? 0) with true by lia.
    rewrite Nat2Z.id, (firstn_S_nth_error resn k (nth k resn 0)) by (apply nth_error_nth'; lia). rewrite rev_app_distr. cbn [rev app scan_down].
    destruct (t mod nth k resn 0 =? 0); [reflexivity|]. apply IH. lia.
Qed.

(** the fuel S i is enough: the loop makes at most i + 1 tests (p = i-1 down to -1), whatever larger fuel is given *)
Lemma gen_scan_fuel_irrelevant resn t : forall k f, (k <= length resn)%nat -> (S k <= f)%nat ->
  Gen.multseq_scan f resn t (Z.of_nat k - 1) = Gen.multseq_scan (S k) resn t (Z.of_nat k - 1).
Proof.
  induction k as [|k IH]; intros f Hk Hf.
  - destruct f; [lia|]. reflexivity.
  - destruct f as [|f]; [lia|]. cbn [Gen.multseq_scan]. replace (Z.of_nat (S k) - 1) with (Z.of_nat k) by lia.
    replace (Z.of_nat k >=? 0) with true by lia.
    destruct (t mod nth (Z.to_nat (Z.of_nat k)) resn 0 =? 0); [reflexivity|].
    apply IH; lia.
Qed.

(** Canonical form of pixel tables: [aggregate] yields the unique strictly sorted table with the same keys and sums. *)
From Cooler Require Import Model.Pixels.
From Cooler Require Export Proofs.BaseProofs.
From Coq Require Import Sorted Permutation ZifyBool.

Definition SSorted (l : list pixel) : Prop := StronglySorted klt (keys l).

(** out is the canonical aggregate of src: strictly sorted, same key set, same value per key *)
Definition Canon (src out : list pixel) : Prop :=
  SSorted out /\ (forall k, In k (keys out) <-> In k (keys src)) /\ (forall k, look out k = look src k).

Lemma kcmp_eq a b : kcmp a b = Eq <-> a = b.
Proof.
  unfold kcmp. destruct a as [a1 a2], b as [b1 b2]; cbn [fst snd].
  destruct (Z.compare_spec a1 b1) as [->|H|H]; [rewrite Z.compare_eq_iff; split; congruence| |];
    (split; [discriminate|intros [= -> ->]; lia]).
Qed.
Lemma kcmp_lt a b : kcmp a b = Lt <-> klt a b.
Proof.
  unfold kcmp, klt. destruct a as [a1 a2], b as [b1 b2]; cbn [fst snd].
  destruct (Z.compare_spec a1 b1) as [->|H|H]; [rewrite Z.compare_lt_iff; lia|split; [lia|reflexivity]|split; [discriminate|lia]].
Qed.
Lemma kcmp_gt a b : kcmp a b = Gt <-> klt b a.
Proof.
  unfold kcmp, klt. destruct a as [a1 a2], b as [b1 b2]; cbn [fst snd].
  destruct (Z.compare_spec a1 b1) as [->|H|H]; [rewrite Z.compare_gt_iff; lia|split; [discriminate|lia]|split; [lia|reflexivity]].
Qed.
Lemma klt_irrefl a : ~ klt a a. Proof. unfold klt. lia. Qed.
Lemma klt_trans a b c : klt a b -> klt b c -> klt a c. Proof. unfold klt. lia. Qed.
Lemma kcmp_refl a : kcmp a a = Eq. Proof. now apply kcmp_eq. Qed.
Lemma kcmp_swap a b c d : kcmp (a, b) (c, d) = Eq <-> kcmp (b, a) (d, c) = Eq.
Proof. rewrite !kcmp_eq. split; intro H; inversion H; reflexivity. Qed.
Lemma kltb_spec a b : kltb a b = true <-> klt a b.
Proof. unfold kltb, klt. lia. Qed.

Lemma look_ins k v l k' :
  look (ins k v l) k' = (match kcmp k' k with Eq => v | _ => 0 end) + look l k'.
Proof.
  induction l as [|[k0 v0] t IH]; cbn [ins look]; [lia|].
  destruct (kcmp k k0) eqn:E; cbn [look].
  - apply kcmp_eq in E; subst k0. destruct (kcmp k' k); lia.
  - lia.
  - rewrite IH. lia.
Qed.

Lemma keys_ins k v l x : In x (keys (ins k v l)) <-> x = k \/ In x (keys l).
Proof.
  assert (S : x = k <-> k = x) by (split; congruence). rewrite S. clear S.
  induction l as [|[k0 v0] t IH]; cbn [ins keys map In fst]; [reflexivity|].
  destruct (kcmp k k0) eqn:E; cbn [keys map In fst].
  - apply kcmp_eq in E; subst. clear. tauto.
  - reflexivity.
  - fold (keys (ins k v t)). rewrite IH. fold (keys t). clear. tauto.
Qed.

Lemma sorted_ins k v l : SSorted l -> SSorted (ins k v l).
Proof.
  unfold SSorted. induction l as [|[k0 v0] t IH]; cbn [ins keys map fst]; intro H.
  - constructor; constructor.
  - inversion H as [|? ? Ht Hall]; subst. destruct (kcmp k k0) eqn:E; cbn [keys map fst].
    + constructor; assumption.
    + apply kcmp_lt in E. constructor; [exact H|]. constructor; [exact E|].
      eapply Forall_impl; [|exact Hall]. intros a Ha. eapply klt_trans; eauto.
    + apply kcmp_gt in E. constructor; [apply IH; exact Ht|].
      apply Forall_forall. intros x Hx. apply (keys_ins k v t x) in Hx. destruct Hx as [->|Hx]; [exact E|].
      rewrite Forall_forall in Hall. apply Hall; exact Hx.
Qed.

Lemma look_notin l k : ~ In k (keys l) -> look l k = 0.
Proof.
  induction l as [|[k0 v0] t IH]; cbn [look keys map In fst]; intro H; [reflexivity|].
  destruct (kcmp k k0) eqn:E. { apply kcmp_eq in E. subst. exfalso; apply H; left; reflexivity. }
  all: rewrite IH; [lia| intro; apply H; right; assumption].
Qed.

Lemma look_app l1 l2 k : look (l1 ++ l2) k = look l1 k + look l2 k.
Proof. induction l1 as [|[k0 v0] t IH]; cbn [app look]; [lia|]. rewrite IH. lia. Qed.

Lemma look_cons k' v t k : look ((k', v) :: t) k = (if keqb k k' then v else 0) + look t k.
Proof.
  cbn [look]. f_equal. destruct (keqb k k') eqn:B.
  - apply keqb_eq in B as ->. now rewrite kcmp_refl.
  - apply keqb_neq in B. destruct (kcmp k k') eqn:E; [apply kcmp_eq in E; contradiction|reflexivity..].
Qed.

Lemma look_perm l l' k : Permutation l l' -> look l k = look l' k.
Proof.
  induction 1 as [|[k0 v0] l l' _ IH|[k0 v0] [k1 v1] l|l l' l'' _ IH1 _ IH2]; cbn [look]; lia.
Qed.

Lemma look_concat (ls : list (list pixel)) k : look (concat ls) k = sumZ (map (fun l => look l k) ls).
Proof. induction ls as [|l ls IH]; [reflexivity|]. cbn [concat map]. now rewrite look_app, IH. Qed.

(** a filter that looks at the key only keeps or drops all records of a key *)
Lemma look_filter_key (f : pixel -> bool) (g : key -> bool) l k : (forall p, f p = g (fst p)) ->
  look (filter f l) k = if g k then look l k else 0.
Proof.
  intro Hfg. induction l as [|[k' v] t IH]; cbn [filter look]; [now destruct (g k)|].
  rewrite Hfg. cbn [fst]. destruct (g k') eqn:Eg'; cbn [look]; rewrite IH; destruct (kcmp k k') eqn:Ek;
    try (apply kcmp_eq in Ek; subst k'; rewrite Eg'); now destruct (g k).
Qed.
(** a table in the upper triangle holds nothing at a coordinate of the lower one *)
Lemma look_lower_zero (P : list pixel) i j : (forall p, In p P -> row p <= col p) -> j < i -> look P (i, j) = 0.
Proof.
  intros HU Hji. apply look_notin. intro Hin. apply in_map_iff in Hin. destruct Hin as [p [Hk Hp]].
  apply HU in Hp. destruct p as [[a b] v]. unfold row, col in Hp; cbn [fst snd] in *. inversion Hk; subst. lia.
Qed.

Theorem canon_unique_raw l1 l2 : SSorted l1 -> SSorted l2 ->
  (forall k, In k (keys l1) <-> In k (keys l2)) -> (forall k, look l1 k = look l2 k) -> l1 = l2.
Proof.
  (* the key lists are equal because both are strictly sorted; then the values agree key by key *)
  intros S1 S2 HK HL. pose proof (ssorted_ext klt klt_irrefl klt_trans _ _ S1 S2 HK) as E. clear HK S2.
  revert l2 HL E. induction l1 as [|[k1 v1] t1 IH]; intros [|[k2 v2] t2] HL E; try discriminate; [reflexivity|].
  cbn [keys map fst] in E. injection E as -> E. fold (keys t1) (keys t2) in E.
  apply StronglySorted_inv in S1. destruct S1 as [S1 A1]. fold (keys t1) in S1, A1.
  assert (N : ~ In k2 (keys t1)) by (intro X; rewrite Forall_forall in A1; exact (klt_irrefl k2 (A1 k2 X))).
  assert (v1 = v2) as ->.
  { pose proof (HL k2) as H. cbn [look] in H. rewrite kcmp_refl, (look_notin t1 k2 N), (look_notin t2 k2) in H by now rewrite <- E. lia. }
  f_equal. apply (IH S1); [|exact E]. intro k. pose proof (HL k) as H. cbn [look] in H. lia.
Qed.

Theorem canon_unique src a b : Canon src a -> Canon src b -> a = b.
Proof.
  intros (Sa & Ka & La) (Sb & Kb & Lb). apply canon_unique_raw; auto.
  - intros k. rewrite Ka, Kb. reflexivity.
  - intros k. rewrite La, Lb. reflexivity.
Qed.

(** inserting the records of [l] one by one into a sorted table [acc] aggregates [acc ++ l] *)
Lemma fold_ins_canon l : forall acc, SSorted acc -> Canon (acc ++ l) (fold_left (fun acc p => ins (fst p) (snd p) acc) l acc).
Proof.
  induction l as [|[k0 v0] t IH]; intros acc HS; cbn [fold_left fst snd].
  - rewrite app_nil_r. split; [exact HS|]. split; intro; reflexivity.
  - destruct (IH _ (sorted_ins k0 v0 acc HS)) as (S' & K' & L'). split; [exact S'|]. split; intro k.
    + rewrite K'. unfold keys. rewrite !map_app, !in_app_iff. fold (keys (ins k0 v0 acc)). rewrite keys_ins. cbn [map In fst].
      assert (E : k = k0 <-> k0 = k) by (split; congruence). clear - E. tauto.
    + rewrite L', !look_app, look_ins. cbn [look]. lia.
Qed.

Theorem aggregate_canon l : Canon l (aggregate l).
Proof. exact (fold_ins_canon l [] (SSorted_nil _)). Qed.

Lemma sum_ins k v l : sumZ (map snd (ins k v l)) = v + sumZ (map snd l).
Proof.
  induction l as [|[k' v'] l IH]; cbn [ins]; [reflexivity|].
  destruct (kcmp k k'); cbn [map snd]; rewrite ?sumZ_cons, ?IH; cbn [snd]; lia.
Qed.

Lemma sum_aggregate l : sumZ (map snd (aggregate l)) = sumZ (map snd l).
Proof.
  unfold aggregate. change (sumZ (map snd l)) with (sumZ (map snd (@nil pixel)) + sumZ (map snd l)). generalize (@nil pixel).
  induction l as [|p l IH]; intros acc; cbn [fold_left map]; [symmetry; apply Z.add_0_r|].
  rewrite IH, sum_ins, sumZ_cons. lia.
Qed.

Theorem aggregate_perm l l' : Permutation l l' -> aggregate l = aggregate l'.
Proof.
  intros HP. apply (canon_unique l); [apply aggregate_canon|].
  destruct (aggregate_canon l') as (S' & K' & L'). split; [exact S'|]. split.
  - intros k. rewrite K'. unfold keys. split; apply Permutation_in; [symmetry|]; now apply Permutation_map.
  - intros k. rewrite L'. symmetry. now apply look_perm.
Qed.

Theorem aggregate_sorted_id l : SSorted l -> aggregate l = l.
Proof.
  intros HS. apply (canon_unique l); [apply aggregate_canon|].
  split; [exact HS|]. split; intros; reflexivity.
Qed.

Lemma symm_aggregate (l : list pixel) i j : symm (aggregate l) i j = symm l i j.
Proof. unfold symm. destruct (aggregate_canon l) as (_ & _ & Hlook). destruct (i <=? j); apply Hlook. Qed.

Lemma ssorted_rows px : SSorted px -> StronglySorted Z.le (map row px).
Proof.
  intro H. apply (ssorted_map klt Z.le fst) in H; [|unfold klt; intros; lia]. unfold keys in H. now rewrite map_map in H.
Qed.

Lemma ssorted_b_spec l : ssorted_b l = true <-> SSorted l.
Proof.
  unfold SSorted. induction l as [|p t IH]; cbn [ssorted_b].
  - split; [constructor|reflexivity].
  - destruct t as [|q t'].
    + split; [intros _; cbn; constructor; constructor|reflexivity].
    + rewrite andb_true_iff, IH, kltb_spec. cbn [keys map] in *. split.
      * intros [H1 H2]. constructor; [exact H2|]. constructor; [exact H1|].
        inversion H2 as [|? ? _ Hall]; subst. eapply Forall_impl; [|exact Hall].
        intros a Ha. eapply klt_trans; eauto.
      * intros H. inversion H as [|? ? H2 Hall]; subst. split; [|exact H2].
        inversion Hall; subst; assumption.
Qed.

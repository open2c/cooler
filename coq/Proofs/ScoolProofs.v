(** What [create] writes into the group it makes ([write_tables_inv], [create_group_ok]), with the two
    statements of C15 about append mode: at a free name nothing readable is lost, at an occupied one the
    name is rebound to a group holding only the new tables.  Then C17: what create(append_scool) writes
    for one cell, and by induction over the sorted cell list that every cell of create_scool reads back
    as given, with chroms and the three bin columns being the root's own objects; recognition, listing. *)
From Cooler Require Import Model.Scool Proofs.H5Proofs.
From Coq Require Import Permutation.

(** [keeps w w']: what could be read still reads the same: every link can still be looked up and every dataset
    is where it was with its payload.  Group attributes may change (set_attrs_keeps); [world_le] is stronger
    (world_le_keeps); the first clause alone is the link clause of H5Proofs.kept with no slot excepted. *)
Definition keeps (w w' : world) : Prop :=
  (forall f o n l, lookup_link w f o n = Some l -> lookup_link w' f o n = Some l) /\
  (forall f o d, obj_at w f o = Some (Dataset d) -> obj_at w' f o = Some (Dataset d)).

Lemma keeps_refl : forall w, keeps w w.
Proof. split; auto. Qed.

Lemma keeps_trans : forall a b c, keeps a b -> keeps b c -> keeps a c.
Proof. intros a b c [H1 H2] [H3 H4]. split; eauto. Qed.

Lemma world_le_keeps : forall w w', world_le w w' -> keeps w w'.
Proof.
  intros w w' H. split.
  - intros. eapply world_le_lookup; eauto.
  - intros f o d E. destruct (world_le_obj _ _ _ _ _ H E) as (y & Ey & Ly).
    destruct y; simpl in Ly; try tauto. congruence.
Qed.

Lemma set_attrs_keeps : forall w f o b, keeps w (set_attrs w f o b).
Proof.
  split; intros f' o'; [intros; now rewrite set_attrs_lookup|]. intros d Hd.
  destruct (fid_dec f' f) as [->|Nf]; [destruct (Nat.eq_dec o' o) as [->|No]|]; try (now rewrite set_attrs_other by auto).
  unfold set_attrs. now rewrite Hd.
Qed.

Lemma keeps_child : forall w w' f g n o, keeps w w' -> child w f g n = Some o -> child w' f g n = Some o.
Proof.
  intros w w' f g n o [H _] Hc. unfold child in *.
  destruct (lookup_link w f g n) as [[o'| |]|] eqn:E; try discriminate.
  now rewrite (H _ _ _ _ E).
Qed.

Lemma keeps_ds : forall w w' f g n d, keeps w w' -> ds_at w f g n = Some d -> ds_at w' f g n = Some d.
Proof.
  intros w w' f g n d K Hd. unfold ds_at in *.
  destruct (child w f g n) as [o|] eqn:Ec; try discriminate.
  rewrite (keeps_child _ _ _ _ _ _ K Ec).
  destruct (obj_at w f o) as [[|x]|] eqn:Eo; try discriminate.
  destruct K as [_ K2]. now rewrite (K2 _ _ _ Eo).
Qed.

Lemma child_lookup : forall w f g n o, child w f g n = Some o -> lookup_link w f g n = Some (Hard o).
Proof. unfold child; intros. destruct (lookup_link w f g n) as [[?| |]|]; try discriminate. congruence. Qed.

Lemma bind_child : forall w f g n o w', bind w f g n (Hard o) = Some w' -> child w' f g n = Some o.
Proof. intros. unfold child. now rewrite (bind_lookup _ _ _ _ _ _ H). Qed.

(** every object is still there with the attributes it had (its links and payload are not spoken of) *)
Definition attrs_kept (w w' : world) : Prop :=
  forall f o x, obj_at w f o = Some x -> exists y, obj_at w' f o = Some y /\ attrs_of y = attrs_of x.

Lemma world_le_attrs : forall w w', world_le w w' -> attrs_kept w w'.
Proof.
  intros w w' H f o x E. destruct (world_le_obj _ _ _ _ _ H E) as (y & Ey & Ly). exists y. split; auto.
  destruct x, y; simpl in *; try tauto. now destruct Ly as [-> _].
Qed.

Lemma attrs_kept_trans : forall a b c, attrs_kept a b -> attrs_kept b c -> attrs_kept a c.
Proof.
  intros a b c H1 H2 f o x E. destruct (H1 _ _ _ E) as (y & Ey & Ay). destruct (H2 _ _ _ Ey) as (z & Ez & Az).
  exists z. split; auto. congruence.
Qed.

Lemma upd_attrs_other : forall b a k, ~ In k (map fst b) -> assoc k (upd_attrs a b) = assoc k a.
Proof.
  unfold upd_attrs. induction b as [|[k0 v0] r IH]; simpl; intros a k Hn; auto.
  rewrite IH by tauto. apply assoc_ins_other. intro; subst; apply Hn; auto.
Qed.

Lemma upd_attrs_assoc : forall b a k v, NoDup (map fst b) -> In (k, v) b -> assoc k (upd_attrs a b) = Some v.
Proof.
  unfold upd_attrs. induction b as [|[k0 v0] r IH]; simpl; intros a k v Hnd Hin; [tauto|].
  inversion Hnd as [|? ? Hnot Hnd']; subst. destruct Hin as [E|Hin].
  - injection E as -> ->. fold (upd_attrs (ins_sorted k v a) r). rewrite upd_attrs_other by auto. apply assoc_ins_same.
  - now apply IH.
Qed.

(** Writing columns into the group t only adds objects and links; of the objects that were there, only t
    gets new links, under the column names; the columns read back. *)
Lemma write_cols_inv : forall cols w f t w', write_cols w f t cols = Some w' ->
  world_le w w' /\
  (forall y x m, obj_at w f y = Some x -> y <> t \/ ~ In m (map fst cols) -> lookup_link w' f y m = lookup_link w f y m) /\
  (forall c d, In (c, Fresh d) cols -> ds_at w' f t c = Some d) /\
  (forall c o, In (c, Share o) cols -> child w' f t c = Some o).
Proof.
  induction cols as [|[c src] r IH]; simpl; intros w f t w' H.
  - injection H as <-. split; [apply world_le_refl|]. repeat split; intros; tauto.
  - (* one column: a hard link is bound to a given object or to a dataset allocated for it *)
    assert (exists w1 o w2, world_le w w1 /\ (forall y x, obj_at w f y = Some x -> obj_at w1 f y = Some x) /\
              bind w1 f t c (Hard o) = Some w2 /\ write_cols w2 f t r = Some w' /\
              match src with Fresh d => obj_at w1 f o = Some (Dataset d) | Share o' => o' = o end)
      as (w1 & o & w2 & L1 & Hold & Eb & Hr & Hsrc).
    { destruct src as [d|o].
      - destruct (alloc w f (Dataset d)) as [w1 o] eqn:Ea.
        destruct (bind w1 f t c (Hard o)) as [w2|] eqn:Eb; try discriminate.
        exists w1, o, w2. repeat split; eauto using alloc_le, alloc_old.
        destruct (bind_inv _ _ _ _ _ _ Eb) as (a & ls & Et & _). eapply alloc_at; eauto using obj_exists.
      - destruct (bind w f t c (Hard o)) as [w2|] eqn:Eb; try discriminate.
        exists w, o, w2. repeat split; auto using world_le_refl. }
    destruct (IH _ _ _ _ Hr) as (L2 & Fr & HF & HS). pose proof (bind_le _ _ _ _ _ _ Eb) as Lb.
    pose proof (world_le_keeps _ _ L2) as K2.
    split; [exact (world_le_trans _ _ _ L1 (world_le_trans _ _ _ Lb L2))|]. split; [|split].
    + intros y x m Ey N. destruct (world_le_obj _ _ _ _ _ Lb (Hold _ _ Ey)) as (x2 & Ey2 & _).
      rewrite (Fr y x2 m Ey2) by tauto. rewrite (bind_lookup_other _ _ _ _ _ _ f y m Eb) by tauto.
      unfold lookup_link. now rewrite (Hold _ _ Ey), Ey.
    + intros c' d' [E|Hin]; [|eauto]. injection E as <- ->. eapply keeps_ds; eauto.
      unfold ds_at. rewrite (bind_child _ _ _ _ _ _ Eb).
      destruct (world_le_keeps _ _ Lb) as [_ Kd]. now rewrite (Kd _ _ _ Hsrc).
    + intros c' o' [E|Hin]; [|eauto]. injection E as <- ->. subst o'.
      eapply keeps_child; eauto. eapply bind_child; eauto.
Qed.

(** a written table: its group, its fresh columns with the given payloads, its shared columns the given objects *)
Definition table_ok (w : world) (f : fid) (g : nat) (n : string) (src : tblsrc) : Prop :=
  match src with
  | Table cols => exists t, child w f g n = Some t /\
                    (forall c d, In (c, Fresh d) cols -> ds_at w f t c = Some d) /\
                    (forall c o, In (c, Share o) cols -> child w f t c = Some o)
  | ShareGroup o => child w f g n = Some o
  end.

Lemma table_ok_keeps : forall w w' f g n src, keeps w w' -> table_ok w f g n src -> table_ok w' f g n src.
Proof.
  intros w w' f g n src K H. destruct src as [cols|o]; simpl in *.
  - destruct H as (t & Ht & HF & HS). exists t. split; [eapply keeps_child; eauto|].
    split; intros; [eapply keeps_ds; eauto|eapply keeps_child; eauto].
  - eapply keeps_child; eauto.
Qed.

Lemma write_tables_inv : forall ts w f g w', write_tables w f g ts = Some w' ->
  world_le w w' /\
  (forall y x m, obj_at w f y = Some x -> y <> g \/ ~ In m (map fst ts) -> lookup_link w' f y m = lookup_link w f y m) /\
  (forall n src, In (n, src) ts -> table_ok w' f g n src).
Proof.
  induction ts as [|[n src] r IH]; simpl; intros w f g w' H.
  - injection H as <-. split; [apply world_le_refl|]. split; intros; tauto.
  - (* one table: its name is bound in g, to the given group or to a new one that then gets its columns *)
    assert (exists w3, world_le w w3 /\ write_tables w3 f g r = Some w' /\ table_ok w3 f g n src /\
              forall y x m, obj_at w f y = Some x -> y <> g \/ n <> m -> lookup_link w3 f y m = lookup_link w f y m)
      as (w3 & L & Hr & Hn & Fn).
    { destruct src as [cols|o].
      - destruct (alloc w f (Group [] [])) as [w1 t] eqn:Ea.
        destruct (bind w1 f g n (Hard t)) as [w2|] eqn:Eb; try discriminate.
        destruct (write_cols w2 f t cols) as [w3|] eqn:Ec; try discriminate.
        destruct (write_cols_inv _ _ _ _ _ Ec) as (Lc & Frc & HF & HS).
        pose proof (alloc_le _ _ _ _ _ Ea) as La. pose proof (bind_le _ _ _ _ _ _ Eb) as Lb.
        exists w3. split; [exact (world_le_trans _ _ _ La (world_le_trans _ _ _ Lb Lc))|]. split; [exact H|]. split.
        + exists t. split; auto. eapply keeps_child; [apply world_le_keeps; exact Lc|]. eapply bind_child; eauto.
        + intros y x m Ey N. pose proof (alloc_old _ _ _ _ _ _ _ _ Ea Ey) as Ey1.
          destruct (world_le_obj _ _ _ _ _ Lb Ey1) as (x2 & Ey2 & _). rewrite (Frc y x2 m Ey2).
          2:{ left. intros ->. rewrite (alloc_fresh _ _ _ _ _ Ea) in Ey. discriminate. }
          rewrite (bind_lookup_other _ _ _ _ _ _ f y m Eb) by tauto. unfold lookup_link. now rewrite Ey1, Ey.
      - destruct (bind w f g n (Hard o)) as [w2|] eqn:Eb; try discriminate.
        exists w2. split; [eapply bind_le; eauto|]. split; [exact H|]. split; [eapply bind_child; eauto|].
        intros y x m _ N. apply (bind_lookup_other _ _ _ _ _ _ f y m Eb). tauto. }
    destruct (IH _ _ _ _ Hr) as (L3 & Fr & HT).
    split; [exact (world_le_trans _ _ _ L L3)|]. split.
    + intros y x m Ey N. destruct (world_le_obj _ _ _ _ _ L Ey) as (x3 & Ey3 & _).
      rewrite (Fr y x3 m Ey3), (Fn y x m Ey) by tauto. reflexivity.
    + intros n' src' [E|Hin]; [|eauto]. injection E as <- <-. eapply table_ok_keeps; [apply world_le_keeps|]; eauto.
Qed.

(** when it succeeds: the parent was reached (its missing ancestors created), and got a hard link to a
    newly allocated group.  The last clause needs the parent object to exist: on a file whose store is empty the
    "parent" 0 of a one-component path is the very object that is allocated. *)
Lemma create_group_ok : forall w f p w' f1 g, create_group w f p = (Ok, w', (f1, g)) ->
  world_le w w' /\ obj_at w f1 g = None /\
  exists par n w1 fl gp, split_last p = Some (par, n) /\ ensure w f 0 par = Some (w1, fl, f1, gp) /\
    world_le w1 w' /\ child w' f1 gp n = Some g /\
    forall xg, obj_at w1 f1 gp = Some xg ->
      gp <> g /\ obj_at w' f1 g = Some (Group [] []) /\
      forall m, n <> m -> lookup_link w' f1 gp m = lookup_link w1 f1 gp m.
Proof.
  unfold create_group; intros w f p w' f1 g H.
  destruct (split_last p) as [[par n]|]; try discriminate.
  destruct (ensure w f 0 par) as [[[[w1 fl] f1'] gp]|] eqn:E; try discriminate.
  destruct (lookup_link w1 f1' gp n) eqn:El.
  { exfalso. injection H as He _ _ _. eapply exists_err_not_ok; eauto. discriminate. }
  destruct (alloc w1 f1' (Group [] [])) as [w2 o] eqn:Ea.
  destruct (bind w2 f1' gp n (Hard o)) as [w3|] eqn:Eb; try discriminate.
  injection H as <- <- <-.
  pose proof (ensure_le _ _ _ _ _ _ _ _ E) as L0. pose proof (alloc_fresh _ _ _ _ _ Ea) as Hfr.
  assert (world_le w1 w3) as L1 by (eapply world_le_trans; [eapply alloc_le; eauto|eapply bind_le; eauto]).
  split; [eapply world_le_trans; eauto|]. split.
  { destruct (obj_at w f1' o) eqn:Ex; auto. destruct (world_le_obj _ _ _ _ _ L0 Ex) as (y & Ey & _). congruence. }
  exists par, n, w1, fl, gp. repeat split; auto; [eapply bind_child; eauto|..].
  - intros ->. congruence.
  - destruct (bind_inv _ _ _ _ _ _ Eb) as (a & ls & Egp & _ & ->).
    rewrite set_obj_other by (right; intros ->; congruence). eapply alloc_at; eauto using obj_exists.
  - intros m Nm. rewrite (bind_lookup_other _ _ _ _ _ _ f1' gp m Eb) by auto.
    unfold lookup_link. now rewrite (alloc_old _ _ _ _ _ _ _ _ Ea H), H.
Qed.

(** ... and it does succeed when the parent is a group without a member of that name *)
Lemma create_group_free : forall w f p par n w1 fl f1 gp a ls,
  split_last p = Some (par, n) -> ensure w f 0 par = Some (w1, fl, f1, gp) ->
  obj_at w1 f1 gp = Some (Group a ls) -> assoc n ls = None ->
  exists w' g, create_group w f p = (Ok, w', (f1, g)).
Proof.
  intros w f p par n w1 fl f1 gp a ls Hs He Eg Hn. unfold create_group. rewrite Hs, He.
  unfold lookup_link. rewrite Eg, Hn. destruct (alloc w1 f1 (Group [] [])) as [wa g] eqn:Ea. unfold bind.
  rewrite (alloc_old _ _ _ _ _ _ _ _ Ea Eg), Hn. eauto.
Qed.

(** create in append mode, when create_group gets through at the first attempt: the tables and the attributes
    are written into the new group *)
Lemma create_append_eq : forall w f p spec w1 f1 g,
  file_exists w f = true -> create_group w f p = (Ok, w1, (f1, g)) ->
  create w f p false spec =
  match write_tables w1 f1 g (cs_tables spec) with
  | Some w2 => (Ok, set_attrs w2 f1 g (cs_attrs spec))
  | None => (EValue, w1)
  end.
Proof.
  intros w f p spec w1 f1 g Hex Hcg. unfold create. rewrite Hex. simpl orb. cbv iota.
  destruct p as [|c r]; [unfold create_group in Hcg; simpl in Hcg; discriminate|]. now rewrite Hcg.
Qed.

(** creating a collection in append mode at a path whose last name is free keeps every link that could be
    looked up and every dataset of both files, whatever the outcome of writing the tables *)
Theorem create_append_frame : forall w f p spec w1 tgt e w',
  file_exists w f = true -> create_group w f p = (Ok, w1, tgt) ->
  create w f p false spec = (e, w') -> keeps w w'.
Proof.
  intros w f p spec w1 [f1 g] e w' Hex Hcg H. rewrite (create_append_eq _ _ _ _ _ _ _ Hex Hcg) in H.
  destruct (create_group_ok _ _ _ _ _ _ Hcg) as (L & _).
  destruct (write_tables w1 f1 g (cs_tables spec)) as [w2|] eqn:Ew; injection H as _ <-.
  - destruct (write_tables_inv _ _ _ _ _ Ew) as (L2 & _).
    eapply keeps_trans; [apply world_le_keeps; eapply world_le_trans; eauto|apply set_attrs_keeps].
  - now apply world_le_keeps.
Qed.

(** re-creating (append mode) at an OCCUPIED non-root path whose parent traversal does not
    pass through the occupied link itself: the name is rebound to a NEW group that holds exactly the tables
    of the new collection (nothing of the old one), and every traversal that did not pass through that link
    resolves exactly as before *)
Theorem recreate_replaces : forall w f p spec w' par n fp gp e0 w0 t0,
  file_exists w f = true -> create_group w f p = (e0, w0, t0) -> e0 = EValue ->
  split_last p = Some (par, n) -> resolve w f par = Found fp gp ->
  walk_av (fp, gp, n) FUEL w false f 0 par = Found fp gp ->
  create w f p false spec = (Ok, w') ->
  exists g, child w' fp gp n = Some g /\
    (forall m src, In (m, src) (cs_tables spec) -> table_ok w' fp g m src) /\
    (forall m l, lookup_link w' fp g m = Some l -> In m (map fst (cs_tables spec))) /\
    (forall k x f0 o0 q f1 o1, walk_av (fp, gp, n) k w x f0 o0 q = Found f1 o1 -> walk k w' x f0 o0 q = Found f1 o1).
Proof.
  intros w f p spec w' par n fp gp e0 w0 t0 Hex Hcg -> Hs Erp Hav H.
  unfold create in H. rewrite Hex in H. simpl orb in H. cbv iota in H.
  destruct p as [|c r]; [discriminate|]. rewrite Hcg in H.
  destruct (del_link w f (c :: r)) as [ed wd] eqn:Ed. destruct ed; try discriminate.
  destruct (del_link_ok _ _ _ _ Ed) as (par' & n' & fp' & gp' & Hs' & Erp' & U & Hnone).
  rewrite Hs in Hs'. injection Hs' as <- <-. rewrite Erp in Erp'. injection Erp' as <- <-.
  destruct (create_group wd f (c :: r)) as [[e1 w1] [f1 g]] eqn:Ecg2. destruct e1; try discriminate.
  destruct (write_tables w1 f1 g (cs_tables spec)) as [w2|] eqn:Ew; try discriminate.
  injection H as <-.
  destruct (create_group_ok _ _ _ _ _ _ Ecg2) as (Ld & _ & par2 & n2 & we & fl & gpar & Hs2 & He & L1 & Hch & Hgp).
  rewrite Hs in Hs2. injection Hs2 as <- <-.
  (* the parent reached by ensure is the parent whose member was unlinked *)
  pose proof (unlinked_kept _ _ _ _ _ U) as KU.
  assert (resolve wd f par = Found fp gp) as Erd by (unfold resolve; eapply walk_av_kept; eauto).
  assert (f1 = fp /\ gpar = gp) as [-> ->].
  { unfold ensure in He. destruct (ensure_gen_resolves _ _ _ _ _ _ _ _ _ _ He) as [j Hj].
    pose proof (walk_found_mono _ _ _ _ _ _ _ _ _ (ensure_gen_le _ _ _ _ _ _ _ _ _ _ _ He) Erd) as Hr.
    exact (walk_found_det _ _ _ _ _ _ _ _ _ _ _ _ Hj Hr). }
  assert (exists xg, obj_at we fp gp = Some xg) as [xg Exg].
  { destruct U as (a & ls & Eg & ->).
    destruct (world_le_obj _ _ _ _ _ (ensure_le _ _ _ _ _ _ _ _ He) (set_obj_at _ _ _ _ (Group a (remove_key n ls)) Eg))
      as (y & Ey & _). eauto. }
  destruct (Hgp _ Exg) as (Ng & Enew & _).
  destruct (write_tables_inv _ _ _ _ _ Ew) as (L2 & Fr & HT).
  exists g. split; [|split; [|split]].
  - eapply keeps_child; [apply set_attrs_keeps|]. eapply keeps_child; [apply world_le_keeps|]; eauto.
  - intros m src Hin. eapply table_ok_keeps; [apply set_attrs_keeps|eauto].
  - intros m l Hl. rewrite set_attrs_lookup in Hl.
    destruct (in_dec S.string_dec m (map fst (cs_tables spec))) as [Hin|Hnot]; auto. exfalso.
    rewrite (Fr g _ m Enew) in Hl by auto. unfold lookup_link in Hl. rewrite Enew in Hl. discriminate.
  - intros k x f0 o0 q f1 o1. apply walk_av_kept.
    eapply kept_trans; [exact KU|]. eapply kept_trans; [|apply set_attrs_kept].
    apply world_le_kept. eapply world_le_trans; eauto.
Qed.

(** the state of /cells before a cell named [name] is appended: no /cells yet, or a group without that name *)
Definition cell_fresh (w : world) (f : fid) (ls0 : list (string * link)) (name : string) : Prop :=
  assoc "cells"%string ls0 = None \/
  exists g0 ac lsc, assoc "cells"%string ls0 = Some (Hard g0) /\ obj_at w f g0 = Some (Group ac lsc) /\ assoc name lsc = None.

(** the parent /cells, as create_group finds it: just created and empty, or the group that was there *)
Lemma ensure_cells : forall w f a0 ls0 name, obj_at w f 0 = Some (Group a0 ls0) -> cell_fresh w f ls0 name ->
  exists w1 fl gc ac lsc, ensure w f 0 ["cells"%string] = Some (w1, fl, f, gc) /\
    child w1 f 0 "cells"%string = Some gc /\ obj_at w1 f gc = Some (Group ac lsc) /\ assoc name lsc = None /\
    (forall g0, assoc "cells"%string ls0 = Some (Hard g0) -> gc = g0) /\
    (forall m l, assoc m lsc = Some l -> exists g0, assoc "cells"%string ls0 = Some (Hard g0) /\ lookup_link w f g0 m = Some l).
Proof.
  intros w f a0 ls0 name E0 [Hn|(g0 & ac & lsc & Hs & Eg & Hnone)]; unfold ensure; simpl; rewrite E0.
  - rewrite Hn. destruct (alloc w f (Group [] [])) as [wa ga] eqn:Ea.
    pose proof (alloc_old _ _ _ _ _ _ _ _ Ea E0) as Ea0.
    exists (set_obj wa f 0 (Group a0 (ins_sorted "cells"%string (Hard ga) ls0))), (false, false), ga, [], [].
    split; auto. split; [|split; [|split; [|split]]]; try reflexivity.
    + unfold child, lookup_link. erewrite set_obj_at by eauto. now rewrite assoc_ins_same.
    + rewrite set_obj_other; [eapply alloc_at; eauto using obj_exists|].
      right. intros ->. rewrite (alloc_fresh _ _ _ _ _ Ea) in E0. discriminate.
    + intros; congruence.
    + intros; discriminate.
  - rewrite Hs. simpl. exists w, (false, false), g0, ac, lsc.
    split; auto. split; [unfold child, lookup_link; now rewrite E0, Hs|]. split; auto. split; auto.
    split; [intros; congruence|]. intros m l Hm. exists g0. split; auto. unfold lookup_link. now rewrite Eg.
Qed.

(** Appending one cell on a fresh name.  The name being free, create_group succeeds at the first attempt; the
    rest is the frame of its steps: ensure /cells, allocate and link the cell group, write its tables, set its
    attributes. *)
Lemma create_cell : forall w f a0 ls0 name sp w',
  file_exists w f = true -> obj_at w f 0 = Some (Group a0 ls0) -> cell_fresh w f ls0 name ->
  create w f ["cells"%string; name] false sp = (Ok, w') ->
  exists gc g,
    keeps w w' /\ attrs_kept w w' /\
    child w' f 0 "cells"%string = Some gc /\ child w' f gc name = Some g /\
    (forall g0, assoc "cells"%string ls0 = Some (Hard g0) -> gc = g0) /\
    (forall n src, In (n, src) (cs_tables sp) -> table_ok w' f g n src) /\
    (forall m l, lookup_link w' f gc m = Some l ->
       m = name \/ exists g0, assoc "cells"%string ls0 = Some (Hard g0) /\ lookup_link w f g0 m = Some l) /\
    (forall k v, NoDup (map fst (cs_attrs sp)) -> In (k, v) (cs_attrs sp) ->
       exists x, obj_at w' f g = Some x /\ assoc k (attrs_of x) = Some v).
Proof.
  intros w f a0 ls0 name sp w' Hex E0 Hfresh H.
  destruct (ensure_cells _ _ _ _ _ E0 Hfresh) as (we & fl & gc & ac & lsc & He & Hcells & Egc & Hnone & Hsame & Hold).
  destruct (create_group_free w f ["cells"%string; name] _ _ _ _ _ _ _ _ eq_refl He Egc Hnone) as (w1 & g & Ecg).
  rewrite (create_append_eq _ _ _ _ _ _ _ Hex Ecg) in H.
  destruct (write_tables w1 f g (cs_tables sp)) as [w2|] eqn:Ew; [|discriminate]. injection H as <-.
  destruct (create_group_ok _ _ _ _ _ _ Ecg) as (L & Hfr & par & n & we' & fl' & gp & Hs & He' & L1 & Hch & Hgp).
  simpl in Hs. injection Hs as <- <-. rewrite He in He'. injection He' as <- <- <-.
  destruct (Hgp _ Egc) as (Ng & Enew & Hgc).
  destruct (write_tables_inv _ _ _ _ _ Ew) as (L2 & Fr & HT).
  pose proof (world_le_trans _ _ _ L L2) as L02.
  pose proof (set_attrs_keeps w2 f g (cs_attrs sp)) as K3.
  destruct (world_le_obj _ _ _ _ _ L2 Enew) as ([a2 ls2|] & E2 & Le); simpl in Le; try tauto. destruct Le as [<- _].
  exists gc, g. split; [|split; [|split; [|split; [|split; [|split; [|split]]]]]].
  - eapply keeps_trans; [apply world_le_keeps|]; eauto.
  - intros f0 o0 x Ex. destruct (world_le_attrs _ _ L02 _ _ _ Ex) as (y & Ey & Ay).
    exists y. split; auto. rewrite set_attrs_other; auto.
    destruct (fid_dec f0 f) as [->|]; auto. right. intros ->. congruence.
  - eapply keeps_child; [|exact Hcells]. eapply keeps_trans; [apply world_le_keeps; eapply world_le_trans|]; eauto.
  - eapply keeps_child; [|exact Hch]. eapply keeps_trans; [apply world_le_keeps|]; eauto.
  - exact Hsame.
  - intros n src Hin. eapply table_ok_keeps; eauto.
  - intros m l Hl. destruct (S.string_dec m name) as [->|Nm]; [left; auto|right].
    rewrite set_attrs_lookup in Hl. destruct (world_le_obj _ _ _ _ _ L1 Egc) as (xg1 & Exg1 & _).
    rewrite (Fr gc xg1 m Exg1), Hgc in Hl by auto. unfold lookup_link in Hl. rewrite Egc in Hl. eauto.
  - intros k v Hnd Hin. eexists. split; [eapply set_attrs_at; eauto|]. simpl. now apply upd_attrs_assoc.
Qed.

(** what "cell c reads back as given" means on the store: /cells/<name> is a group whose chroms table
    is the root's chroms GROUP rc, whose bins table has the root's three datasets o1 o2 o3 as chrom/start/end
    plus the cell's own extra columns, and whose pixels and indexes hold exactly the given columns *)
Definition cell_ok (w : world) (f : fid) (rc o1 o2 o3 : nat) (c : cell) : Prop :=
  exists gc g, child w f 0 "cells"%string = Some gc /\ child w f gc (c_name c) = Some g /\
    child w f g "chroms"%string = Some rc /\
    (exists tb, child w f g "bins"%string = Some tb /\
                child w f tb "chrom"%string = Some o1 /\ child w f tb "start"%string = Some o2 /\
                child w f tb "end"%string = Some o3 /\
                forall k d, In (k, d) (c_extra_bins c) -> ds_at w f tb k = Some d) /\
    (exists tp, child w f g "pixels"%string = Some tp /\ forall k d, In (k, d) (c_pixels c) -> ds_at w f tp k = Some d) /\
    (exists ti, child w f g "indexes"%string = Some ti /\ forall k d, In (k, d) (c_indexes c) -> ds_at w f ti k = Some d).

Lemma cell_ok_keeps : forall w w' f rc o1 o2 o3 c, keeps w w' -> cell_ok w f rc o1 o2 o3 c -> cell_ok w' f rc o1 o2 o3 c.
Proof.
  intros w w' f rc o1 o2 o3 c K (gc & g & H1 & H2 & H3 & (tb & B1 & B2 & B3 & B4 & B5) & (tp & P1 & P2) & (ti & I1 & I2)).
  pose proof (fun g n o => keeps_child w w' f g n o K) as Kc. pose proof (fun g n d => keeps_ds w w' f g n d K) as Kd.
  exists gc, g. repeat split; auto.
  - exists tb. repeat split; auto.
  - exists tp. split; auto.
  - exists ti. split; auto.
Qed.

(** the root as create_scool leaves it before the cells: /chroms = rc, /bins = rb with columns o1 o2 o3 *)
Record root_ok (w : world) (f : fid) (rc rb o1 o2 o3 : nat) : Prop := {
  r_exists : file_exists w f = true;
  r_chroms : child w f 0 "chroms"%string = Some rc;
  r_bins : child w f 0 "bins"%string = Some rb;
  r_c : child w f rb "chrom"%string = Some o1;
  r_s : child w f rb "start"%string = Some o2;
  r_e : child w f rb "end"%string = Some o3
}.

(** the loop invariant of append_cells: /cells is missing and nothing is done yet, or it is a group whose
    members all bear names of [done] *)
Definition cells_state (w : world) (f : fid) (done : list string) : Prop :=
  exists a0 ls0, obj_at w f 0 = Some (Group a0 ls0) /\
    ((done = [] /\ assoc "cells"%string ls0 = None) \/
     (exists gc ac lsc, assoc "cells"%string ls0 = Some (Hard gc) /\ obj_at w f gc = Some (Group ac lsc) /\
                        forall m l, assoc m lsc = Some l -> In m done)).

Lemma root_ok_keeps : forall w w' f rc rb o1 o2 o3, keeps w w' -> root_ok w f rc rb o1 o2 o3 -> root_ok w' f rc rb o1 o2 o3.
Proof.
  intros w w' f rc rb o1 o2 o3 K [H0 H1 H2 H3 H4 H5].
  pose proof (fun g n o => keeps_child w w' f g n o K) as Kc. constructor; auto.
  destruct (lookup_obj _ _ _ _ _ (child_lookup _ _ _ _ _ (keeps_child _ _ _ _ _ _ K H1))). eapply obj_exists; eauto.
Qed.

Lemma cell_spec_root : forall w f rc rb o1 o2 o3 c, root_ok w f rc rb o1 o2 o3 ->
  cell_spec w f c = Some (mkSpec
     [("chroms"%string, ShareGroup rc);
      ("bins"%string, Table ([("chrom"%string, Share o1); ("start"%string, Share o2); ("end"%string, Share o3)]
                             ++ map (fun kv => (fst kv, Fresh (snd kv))) (c_extra_bins c)));
      ("pixels"%string, Table (map (fun kv => (fst kv, Fresh (snd kv))) (c_pixels c)));
      ("indexes"%string, Table (map (fun kv => (fst kv, Fresh (snd kv))) (c_indexes c)))]
     (c_attrs c)).
Proof. intros w f rc rb o1 o2 o3 c [H0 H1 H2 H3 H4 H5]. unfold cell_spec. now rewrite H1, H2, H3, H4, H5. Qed.

Lemma in_fresh : forall (l : list (string * payload)) k d, In (k, d) l ->
  In (k, Fresh d) (map (fun kv => (fst kv, Fresh (snd kv))) l).
Proof. intros l k d H. apply in_map_iff. exists (k, d). auto. Qed.

(** what is_cooler looks for, in the attributes the cell is created with *)
Definition cell_tagged (c : cell) : Prop :=
  NoDup (map fst (c_attrs c)) /\ In ("format"%string, AStr MAGIC) (c_attrs c).

(** One induction over the cell list carries everything: what was readable stays readable, attributes of
    older objects are kept, /cells has exactly the names appended so far, and each appended cell reads back as
    given and carries its attributes. *)
Lemma append_cells_all : forall cells w f rc rb o1 o2 o3 done w',
  root_ok w f rc rb o1 o2 o3 -> cells_state w f done ->
  NoDup (done ++ map c_name cells) ->
  append_cells w f cells = (Ok, w') ->
  keeps w w' /\ attrs_kept w w' /\ cells_state w' f (done ++ map c_name cells) /\
  forall c, In c cells -> cell_ok w' f rc o1 o2 o3 c /\
    forall k v, NoDup (map fst (c_attrs c)) -> In (k, v) (c_attrs c) ->
      exists gc g x, child w' f 0 "cells"%string = Some gc /\ child w' f gc (c_name c) = Some g /\
                     obj_at w' f g = Some x /\ assoc k (attrs_of x) = Some v.
Proof.
  induction cells as [|c r IH]; intros w f rc rb o1 o2 o3 done w' HR HS Hnd H.
  - injection H as <-. rewrite app_nil_r. split; [apply keeps_refl|]. split; [intros ? ? ? E; eauto|]. split; [auto|intros ? []].
  - unfold append_cells in H. simpl in H. fold append_cells in H.
    rewrite (cell_spec_root _ _ _ _ _ _ _ c HR) in H.
    set (sp := mkSpec _ _) in H.
    destruct (create w f (cell_path c) false sp) as [e w1] eqn:Ec.
    destruct e; try discriminate.
    destruct HS as (a0 & ls0 & E0 & Hst).
    assert (cell_fresh w f ls0 (c_name c)) as Hfresh.
    { destruct Hst as [[-> Hn]|(gc & ac & lsc & Hs & Eg & Hkeys)]; [left; auto|right].
      exists gc, ac, lsc. repeat split; auto.
      destruct (assoc (c_name c) lsc) eqn:En; auto. exfalso.
      apply Hkeys in En. simpl in Hnd. apply NoDup_remove_2 in Hnd. apply Hnd.
      apply in_or_app. auto. }
    destruct (create_cell _ _ _ _ _ _ _ (r_exists _ _ _ _ _ _ _ HR) E0 Hfresh Ec)
      as (gc & g & K1 & A1 & Hcells & Hcell & Hold & HT & Hkeys1 & Hattr).
    assert (cells_state w1 f (done ++ [c_name c])) as HS1.
    { pose proof (child_lookup _ _ _ _ _ Hcells) as Hc1. pose proof (child_lookup _ _ _ _ _ Hcell) as Hc2.
      unfold lookup_link in Hc1, Hc2.
      destruct (obj_at w1 f 0) as [[a1 ls1|]|] eqn:E1; try discriminate.
      destruct (obj_at w1 f gc) as [[ac1 lsc1|]|] eqn:Eg1; try discriminate.
      exists a1, ls1. split; auto. right. exists gc, ac1, lsc1. repeat split; auto.
      intros m l Hm. apply in_or_app.
      destruct (Hkeys1 m l) as [->|(g0 & Hg0 & Hl0)]; [unfold lookup_link; now rewrite Eg1|simpl; auto|left].
      destruct Hst as [[_ Hn]|(gc0 & ac & lsc & Hs & Eg & Hk)]; [congruence|].
      rewrite Hs in Hg0. injection Hg0 as <-. unfold lookup_link in Hl0. rewrite Eg in Hl0. eauto. }
    assert (NoDup ((done ++ [c_name c]) ++ map c_name r)) as Hnd1 by (rewrite <- app_assoc; exact Hnd).
    destruct (IH w1 f rc rb o1 o2 o3 (done ++ [c_name c]) w' (root_ok_keeps _ _ _ _ _ _ _ _ K1 HR) HS1 Hnd1 H)
      as (K2 & A2 & HS2 & Hcs). rewrite <- app_assoc in HS2.
    split; [eapply keeps_trans; eauto|]. split; [eapply attrs_kept_trans; eauto|]. split; [exact HS2|].
    intros c' [<-|Hin]; [|auto]. split.
    + eapply cell_ok_keeps; eauto.
      exists gc, g. split; auto. split; auto.
      pose proof (HT "chroms"%string _ (or_introl eq_refl)) as T1. simpl in T1.
      destruct (HT "bins"%string _ (or_intror (or_introl eq_refl))) as (tb & B & HF & HS').
      destruct (HT "pixels"%string _ (or_intror (or_intror (or_introl eq_refl)))) as (tp & Bp & HFp & _).
      destruct (HT "indexes"%string _ (or_intror (or_intror (or_intror (or_introl eq_refl))))) as (ti & Bi & HFi & _).
      split; auto. split; [|split].
      * exists tb. split; [exact B|]. do 3 (split; [apply HS'; simpl; auto|]).
        intros k d Hin. apply HF. do 3 right. now apply in_fresh.
      * exists tp. split; auto. intros k d Hin. apply HFp. now apply in_fresh.
      * exists ti. split; auto. intros k d Hin. apply HFi. now apply in_fresh.
    + intros k v Hnd0 Hin0. destruct (Hattr k v Hnd0 Hin0) as (x & Ex & Ax). destruct (A2 _ _ _ Ex) as (y & Ey & Ay).
      exists gc, g, y. rewrite Ay.
      exact (conj (keeps_child _ _ _ _ _ _ K2 Hcells) (conj (keeps_child _ _ _ _ _ _ K2 Hcell) (conj Ey Ax))).
Qed.

Theorem append_cells_coolers : forall cells w f rc rb o1 o2 o3 done w',
  root_ok w f rc rb o1 o2 o3 -> cells_state w f done ->
  NoDup (done ++ map c_name cells) -> Forall cell_tagged cells ->
  append_cells w f cells = (Ok, w') ->
  attrs_kept w w' /\
  forall c, In c cells -> forall gc g, child w' f 0 "cells"%string = Some gc -> child w' f gc (c_name c) = Some g ->
    is_cooler_at w' f g = true.
Proof.
  intros cells w f rc rb o1 o2 o3 done w' HR HS Hnd Htag H.
  destruct (append_cells_all _ _ _ _ _ _ _ _ _ _ HR HS Hnd H) as (_ & A & _ & Hc).
  split; auto. intros c Hin gc g Hgc Hg. rewrite Forall_forall in Htag.
  destruct (Htag c Hin) as [Hnd0 Hf0]. destruct (Hc c Hin) as (_ & Hattr).
  destruct (Hattr _ _ Hnd0 Hf0) as (gc' & g' & x & Hgc' & Hg' & Ex & Ax).
  rewrite Hgc in Hgc'. injection Hgc' as <-. rewrite Hg in Hg'. injection Hg' as <-.
  unfold is_cooler_at. rewrite Ex. unfold is_cooler_obj. now rewrite Ax.
Qed.

Lemma insert_cell_perm : forall c l, Permutation (insert_cell c l) (c :: l).
Proof.
  induction l as [|d r IH]; simpl; auto.
  destruct (S.leb (c_name c) (c_name d)); auto.
  eapply perm_trans; [apply perm_skip; exact IH|apply perm_swap].
Qed.

Lemma sort_cells_perm : forall l, Permutation (sort_cells l) l.
Proof.
  induction l as [|c r IH]; simpl; auto.
  eapply perm_trans; [apply insert_cell_perm|]. now apply perm_skip.
Qed.

Lemma sort_cells_nodup : forall l, NoDup (map c_name l) -> NoDup (map c_name (sort_cells l)).
Proof.
  intros l H. eapply Permutation_NoDup; [|exact H]. apply Permutation_map, Permutation_sym, sort_cells_perm.
Qed.

Lemma sort_cells_forall : forall (P : cell -> Prop) l, Forall P l -> Forall P (sort_cells l).
Proof. intros P l H. eapply Permutation_Forall; [apply Permutation_sym, sort_cells_perm|exact H]. Qed.

Lemma ds_child : forall w f t n d, ds_at w f t n = Some d -> exists o, child w f t n = Some o.
Proof. unfold ds_at; intros. destruct (child w f t n); eauto. discriminate. Qed.

Lemma del_nothing_on_empty : forall w f names,
  get_store w f = Some empty_store -> del_if_present w f names = w.
Proof.
  intros w f names Es. unfold del_if_present.
  induction names as [|n r IH]; simpl; auto.
  assert (contains_b w f [n] = false) as ->; auto.
  unfold contains_b, contains. simpl. unfold lookup_link, obj_at. rewrite Es. reflexivity.
Qed.

(** mode "w": on the emptied file the root gets its two tables and its attributes; /cells is not there yet *)
Lemma create_scool_unfold : forall w f rchroms rbins rattrs cells w' dc ds de,
  create_scool w f true rchroms rbins rattrs cells = (Ok, w') ->
  In ("chrom"%string, dc) rbins -> In ("start"%string, ds) rbins -> In ("end"%string, de) rbins ->
  exists w3 rc rb o1 o2 o3,
    root_ok w3 f rc rb o1 o2 o3 /\ cells_state w3 f [] /\
    append_cells w3 f (sort_cells cells) = (Ok, w') /\
    (forall k d, In (k, d) rchroms -> ds_at w3 f rc k = Some d) /\
    (forall k d, In (k, d) rbins -> ds_at w3 f rb k = Some d) /\
    exists a ls, obj_at w3 f 0 = Some (Group (upd_attrs a rattrs) ls).
Proof.
  intros w f rchroms rbins rattrs cells w' dc ds de H Hc Hs He.
  unfold create_scool in H. simpl orb in H. cbv iota in H.
  set (w0 := set_store w f (Some empty_store)) in *.
  assert (get_store w0 f = Some empty_store) as Es0 by (unfold w0; apply get_set_same).
  rewrite (del_nothing_on_empty _ _ _ Es0) in H.
  set (ts := [("chroms"%string, Table _); ("bins"%string, Table _)]) in H.
  destruct (write_tables w0 f 0 ts) as [w2|] eqn:Ew; [|discriminate].
  destruct (write_tables_inv _ _ _ _ _ Ew) as (L2 & Fr & HT).
  destruct (HT "chroms"%string _ (or_introl eq_refl)) as (rc & Hrc & HFc & _).
  destruct (HT "bins"%string _ (or_intror (or_introl eq_refl))) as (rb & Hrb & HFb & _).
  destruct (ds_child _ _ _ _ _ (HFb _ _ (in_fresh _ _ _ Hc))) as (o1 & Ho1).
  destruct (ds_child _ _ _ _ _ (HFb _ _ (in_fresh _ _ _ Hs))) as (o2 & Ho2).
  destruct (ds_child _ _ _ _ _ (HFb _ _ (in_fresh _ _ _ He))) as (o3 & Ho3).
  pose proof (set_attrs_keeps w2 f 0 rattrs) as K3.
  set (w3 := set_attrs w2 f 0 rattrs) in *.
  assert (obj_at w0 f 0 = Some (Group [] [])) as E00 by (unfold obj_at; now rewrite Es0).
  destruct (world_le_obj _ _ _ _ _ L2 E00) as ([a2 ls2|] & E2 & Le); simpl in Le; try tauto.
  pose proof (set_attrs_at _ _ _ rattrs _ _ E2) as E3. fold w3 in E3.
  pose proof (fun g n o => keeps_child w2 w3 f g n o K3) as Kc.
  exists w3, rc, rb, o1, o2, o3. split; [constructor; [exact (obj_exists _ _ _ _ E3)|auto..]|].
  split; [|split; [exact H|split; [|split]]].
  - exists (upd_attrs a2 rattrs), ls2. split; auto. left. split; auto.
    assert (lookup_link w3 f 0 "cells"%string = None) as Hn.
    { unfold w3. rewrite set_attrs_lookup, (Fr 0%nat _ "cells"%string E00); [unfold lookup_link; now rewrite E00|].
      right. simpl. intros [E|[E|[]]]; discriminate. }
    unfold lookup_link in Hn. now rewrite E3 in Hn.
  - intros k d Hin. eapply keeps_ds; eauto. apply HFc. now apply in_fresh.
  - intros k d Hin. eapply keeps_ds; eauto. apply HFb. now apply in_fresh.
  - eauto.
Qed.

(** C17 central theorem (mode "w", the default of create_scool): every cell reads back as given, the bin
    columns chrom/start/end and the chroms table of every cell are the root's own objects, and /cells has
    no member besides the given names *)
Theorem create_scool_spec : forall w f rchroms rbins rattrs cells w' dc ds de,
  create_scool w f true rchroms rbins rattrs cells = (Ok, w') ->
  NoDup (map c_name cells) ->
  In ("chrom"%string, dc) rbins -> In ("start"%string, ds) rbins -> In ("end"%string, de) rbins ->
  exists rc rb o1 o2 o3,
    root_ok w' f rc rb o1 o2 o3 /\
    (forall k d, In (k, d) rchroms -> ds_at w' f rc k = Some d) /\
    (forall k d, In (k, d) rbins -> ds_at w' f rb k = Some d) /\
    (forall c, In c cells -> cell_ok w' f rc o1 o2 o3 c) /\
    cells_state w' f (map c_name (sort_cells cells)).
Proof.
  intros w f rchroms rbins rattrs cells w' dc ds de H Hnd Hc Hs He.
  destruct (create_scool_unfold _ _ _ _ _ _ _ _ _ _ H Hc Hs He)
    as (w3 & rc & rb & o1 & o2 & o3 & HR & HS & Happ & HFc & HFb & _).
  destruct (append_cells_all _ _ _ _ _ _ _ _ _ _ HR HS (sort_cells_nodup _ Hnd) Happ) as (K & _ & HS' & Hcells).
  exists rc, rb, o1, o2, o3. split; [eapply root_ok_keeps; eauto|].
  split; [intros; eapply keeps_ds; eauto|]. split; [intros; eapply keeps_ds; eauto|]. split; auto.
  intros c Hin. apply Hcells. eapply Permutation_in; [apply Permutation_sym, sort_cells_perm|auto].
Qed.

Lemma lookup_mem_keys : forall w f o k l, lookup_link w f o k = Some l -> mem_str k (keys_of w f o) = true.
Proof.
  unfold lookup_link, keys_of, mem_str; intros w f o k l H.
  destruct (obj_at w f o) as [[a ls|]|]; try discriminate.
  apply existsb_exists. exists k. split; [|apply S.eqb_refl].
  apply in_map_iff. exists (k, l). split; auto. now apply assoc_in.
Qed.

Lemma in_keys_assoc : forall X k (l : list (string * X)), In k (map fst l) -> exists v, assoc k l = Some v.
Proof.
  induction l as [|[m y] r IH]; simpl; intros H; [tauto|].
  destruct (S.eqb k m) eqn:E; eauto. destruct H as [H|H]; [subst; rewrite S.eqb_refl in E; discriminate|auto].
Qed.

(** recognition: the file written by create_scool (mode w, at least one cell, every cell tagged as a cooler,
    the root tagged with the single-cell marker) is recognised as a single-cell file *)
Theorem create_scool_recognised : forall w f rchroms rbins rattrs cells w' dc ds de,
  create_scool w f true rchroms rbins rattrs cells = (Ok, w') ->
  NoDup (map c_name cells) -> cells <> [] -> Forall cell_tagged cells ->
  In ("chrom"%string, dc) rbins -> In ("start"%string, ds) rbins -> In ("end"%string, de) rbins ->
  NoDup (map fst rattrs) -> In ("format"%string, AStr MAGIC_SCOOL) rattrs ->
  is_scool_file w' f = Some true.
Proof.
  intros w f rchroms rbins rattrs cells w' dc ds de H Hnd Hne Htag Hc Hs He Hnda Hfmt.
  destruct (create_scool_unfold _ _ _ _ _ _ _ _ _ _ H Hc Hs He)
    as (w3 & rc & rb & o1 & o2 & o3 & HR & HS & Happ & _ & _ & a3 & ls3 & E3).
  destruct (append_cells_all _ _ _ _ _ _ _ _ _ _ HR HS (sort_cells_nodup _ Hnd) Happ) as (K4 & _ & HS4 & Hcells).
  destruct (append_cells_coolers _ _ _ _ _ _ _ _ _ _ HR HS (sort_cells_nodup _ Hnd) (sort_cells_forall _ _ Htag) Happ)
    as (A4 & Hcool).
  pose proof (root_ok_keeps _ _ _ _ _ _ _ _ K4 HR) as HR'.
  simpl app in HS4.
  destruct (sort_cells cells) as [|c0 rest] eqn:Esort.
  { exfalso. apply Hne. apply Permutation_nil. rewrite <- Esort. apply sort_cells_perm. }
  destruct HS4 as (a0 & ls0 & E0 & [[Habs _]|(gc & ac & lsc & Hsc & Egc & Hkeys)]); [discriminate|].
  unfold is_scool_file.
  rewrite (r_exists _ _ _ _ _ _ _ HR'). simpl negb. cbv iota.
  destruct (A4 _ _ _ E3) as (y & Ey & Ay).
  assert (has_format w' f 0 MAGIC_SCOOL = true) as ->.
  { unfold has_format. rewrite Ey, Ay. simpl. rewrite (upd_attrs_assoc _ _ _ _ Hnda Hfmt). reflexivity. }
  simpl negb. cbv iota.
  rewrite (lookup_mem_keys _ _ _ _ _ (child_lookup _ _ _ _ _ (r_chroms _ _ _ _ _ _ _ HR'))).
  rewrite (lookup_mem_keys _ _ _ _ _ (child_lookup _ _ _ _ _ (r_bins _ _ _ _ _ _ _ HR'))).
  assert (lookup_link w' f 0 "cells"%string = Some (Hard gc)) as Hlc by (unfold lookup_link; now rewrite E0).
  rewrite (lookup_mem_keys _ _ _ _ _ Hlc). simpl negb. cbv iota.
  unfold follow_name at 1. rewrite Hlc. simpl follow. cbv iota.
  assert (forall c, In c (c0 :: rest) -> exists g, lookup_link w' f gc (c_name c) = Some (Hard g) /\ is_cooler_at w' f g = true) as Hcell.
  { intros c Hc0. destruct (Hcells c Hc0) as ((gc' & g & Hg1 & Hg2 & _) & _).
    assert (gc' = gc) as -> by (apply child_lookup in Hg1; rewrite Hlc in Hg1; congruence).
    exists g. split; [now apply child_lookup|eapply Hcool; eauto]. }
  destruct (keys_of w' f gc) as [|k0 ks] eqn:Ek.
  - exfalso. destruct (Hcell c0 (or_introl eq_refl)) as (g & Hg & _).
    pose proof (lookup_mem_keys _ _ _ _ _ Hg) as Hm. rewrite Ek in Hm. discriminate.
  - f_equal. apply forallb_forall. intros k Hk. rewrite <- Ek in Hk. unfold keys_of in Hk. rewrite Egc in Hk.
    destruct (in_keys_assoc _ _ _ Hk) as (l & Hl). pose proof (Hkeys _ _ Hl) as Hin.
    apply in_map_iff in Hin. destruct Hin as (c & <- & Hc0). destruct (Hcell c Hc0) as (g & Hg & Hcg).
    unfold follow_name. now rewrite Hg.
Qed.

(** ... and a file whose root does not carry the marker is not *)
Theorem not_scool_without_marker : forall w f, file_exists w f = true ->
  has_format w f 0 MAGIC_SCOOL = false -> is_scool_file w f = Some false.
Proof. intros w f Hex Hf. unfold is_scool_file. now rewrite Hex, Hf. Qed.

(** listing, one direction in general: on the file written by create_scool, whenever list_scool_cells returns
    (well-formed file without external links), every given cell is listed under /cells/<name> *)
Theorem create_scool_cells_listed : forall w f rchroms rbins rattrs cells w' dc ds de L,
  create_scool w f true rchroms rbins rattrs cells = (Ok, w') ->
  NoDup (map c_name cells) -> Forall cell_tagged cells ->
  In ("chrom"%string, dc) rbins -> In ("start"%string, ds) rbins -> In ("end"%string, de) rbins ->
  no_ext w' f -> nodup_keys w' f -> list_scool_cells w' f = (Ok, L) ->
  forall c, In c cells -> In (cell_path c) L.
Proof.
  intros w f rchroms rbins rattrs cells w' dc ds de L H Hnd Htag Hc Hs He Hne Hnk HL c Hin.
  destruct (create_scool_unfold _ _ _ _ _ _ _ _ _ _ H Hc Hs He) as (w3 & rc & rb & o1 & o2 & o3 & HR & HS & Happ & _).
  assert (In c (sort_cells cells)) as Hin' by (eapply Permutation_in; [apply Permutation_sym, sort_cells_perm|auto]).
  destruct (append_cells_all _ _ _ _ _ _ _ _ _ _ HR HS (sort_cells_nodup _ Hnd) Happ) as (_ & _ & _ & Hcells).
  destruct (append_cells_coolers _ _ _ _ _ _ _ _ _ _ HR HS (sort_cells_nodup _ Hnd) (sort_cells_forall _ _ Htag) Happ)
    as (_ & Hcool).
  destruct (Hcells c Hin') as ((gc & g & Hg1 & Hg2 & _) & _).
  unfold list_scool_cells in HL. destruct (is_scool_file w' f) as [[|]|]; try discriminate.
  destruct (list_coolers w' f) as [e L0] eqn:EL. destruct e; try discriminate. injection HL as <-.
  apply filter_In. split; [|reflexivity].
  apply (listing_exact _ _ _ Hne Hnk EL). exists g. split; [|eapply Hcool; eauto].
  unfold cell_path. eapply resolves_step; [apply child_lookup; exact Hg1|reflexivity|].
  eapply resolves_step; [apply child_lookup; exact Hg2|reflexivity|apply resolves_nil].
Qed.

(** a two-cell file for the evaluated statements of C17 *)
Definition ex_cells : list cell :=
  [mkCell "cellB"%string [("w"%string, PInts [1; 2; 3])]
          [("bin1_id"%string, PInts [0; 1]); ("bin2_id"%string, PInts [1; 2]); ("count"%string, PInts [4; 5])]
          [("bin1_offset"%string, PInts [0; 1; 2; 2])] [("format"%string, AStr MAGIC)];
   mkCell "cell A"%string [("w"%string, PInts [7; 8; 9])]
          [("bin1_id"%string, PInts []); ("bin2_id"%string, PInts []); ("count"%string, PInts [])]
          [("bin1_offset"%string, PInts [0; 0; 0; 0])] [("format"%string, AStr MAGIC)]].
Definition ex_scool : outcome * world :=
  create_scool world0 FA true
    [("name"%string, PStrs ["a"%string]); ("length"%string, PInts [30])]
    [("chrom"%string, PEnum ["a"%string] [0; 0; 0]); ("start"%string, PInts [0; 10; 20]); ("end"%string, PInts [10; 20; 30])]
    [("format"%string, AStr MAGIC_SCOOL)] ex_cells.

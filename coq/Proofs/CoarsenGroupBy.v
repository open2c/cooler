(** The group-by lemmas the coarsening proofs use.  Model/Coarsen.v repeats [gins], [group], [groupby_agg] and
    [vals] of Model/Merge.v word for word, so the two copies are convertible and every lemma of
    Proofs/GroupBy.v holds of this copy as it stands. *)
From Cooler Require Import Model.Coarsen Proofs.GroupBy.
From Coq Require Import Sorted Permutation.

Section GroupBy.
Context {V : Type}.
Notation recd := (key * V)%type.

(** filtering by a predicate on the key keeps or drops all values of a key *)
Lemma vals_filter (P : key -> bool) (l : list recd) k :
  vals (filter (fun p => P (fst p)) l) k = if P k then vals l k else [].
Proof. exact (GroupBy.vals_filter P l k). Qed.
Lemma keys_filter (P : key -> bool) (l : list recd) k :
  In k (map fst (filter (fun p => P (fst p)) l)) <-> In k (map fst l) /\ P k = true.
Proof. exact (GroupBy.keys_filter P l k). Qed.

Lemma groupby_agg_app agg (l1 l2 : list recd) :
  (forall k1 k2, In k1 (map fst l1) -> In k2 (map fst l2) -> klt k1 k2) ->
  groupby_agg agg (l1 ++ l2) = groupby_agg agg l1 ++ groupby_agg agg l2.
Proof. exact (GroupBy.groupby_agg_app agg l1 l2). Qed.

(** the source only matters through its key set and its values per key *)
Lemma groupby_agg_src agg (l l' : list recd) :
  (forall k, In k (map fst l) <-> In k (map fst l')) -> (forall k, vals l k = vals l' k) ->
  groupby_agg agg l = groupby_agg agg l'.
Proof. intros HK HV. apply (GroupBy.groupby_agg_rel agg agg l l' HK). intros k _. f_equal. apply HV. Qed.

Lemma groupby_agg_keys agg (l : list recd) k : In k (map fst (groupby_agg agg l)) <-> In k (map fst l).
Proof. exact (GroupBy.groupby_agg_keys agg l k). Qed.
Lemma groupby_agg_sorted agg (l : list recd) : StronglySorted klt (map fst (groupby_agg agg l)).
Proof. exact (GroupBy.groupby_agg_sorted agg l). Qed.
(** the stored value of a key is the aggregate of that key's values over the source, in order *)
Lemma groupby_agg_value agg (l : list recd) k v :
  In (k, v) (groupby_agg agg l) -> v = agg (vals l k).
Proof. exact (GroupBy.groupby_agg_value agg l k v). Qed.
End GroupBy.

Theorem groupby_sum_aggregate (l : list pixel) : groupby_agg sumZ l = aggregate l.
Proof. exact (GroupBy.groupby_sum_aggregate l). Qed.

Lemma groupby_agg_perm {V} (agg : list V -> V) : AggPerm agg ->
  forall l l' : list (key * V), Permutation l l' -> groupby_agg agg l = groupby_agg agg l'.
Proof. exact (GroupBy.groupby_agg_perm agg). Qed.
Lemma groupby_agg_two_level {V} (agg : list V -> V) : AggDecomp agg ->
  forall Gs : list (list (key * V)),
  groupby_agg agg (concat (map (groupby_agg agg) Gs)) = groupby_agg agg (concat Gs).
Proof. exact (GroupBy.groupby_agg_two_level agg). Qed.

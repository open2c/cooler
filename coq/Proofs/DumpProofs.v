(** Proofs about the model of `cooler dump` / `load` / `cload pairs` (Model/Dump.v), in this order:
    the direct engine (the chunks of an admissible chain of cuts put together are the window filter) and the text built
    from an engine's chunks; the fill-lower engine (its plan partitions the window); the annotator's options;
    reading text back (read_fields, the positional fields of `cload pairs`, NAME=NUMBER parameters);
    the load round trips (chunking, COO, BG2). *)
From Coq Require Import String Ascii DecimalString DecimalZ Decimal Permutation Sorted ZifyBool FinFun.
From Coq Require Import List.
From Cooler Require Import Model.Dump Proofs.BaseProofs Proofs.PixelsProofs.
Open Scope Z_scope.

Lemma mapM_app {A B} (f : A -> option B) l1 l2 :
  mapM f (l1 ++ l2) = oapp (mapM f l1) (mapM f l2).
Proof.
  induction l1 as [|x t IH]; cbn.
  - destruct (mapM f l2); reflexivity.
  - rewrite IH. destruct (f x); [|reflexivity].
    destruct (mapM f t); cbn; [|reflexivity]. destruct (mapM f l2); reflexivity.
Qed.

Lemma mapM_map_total {A B} (f : A -> option B) (g : A -> B) l :
  (forall x, In x l -> f x = Some (g x)) -> mapM f l = Some (map g l).
Proof.
  induction l as [|x t IH]; intro H; cbn; [reflexivity|].
  rewrite (H x (or_introl eq_refl)), IH; [reflexivity|]. intros y Hy. apply H. now right.
Qed.

Lemma mapM_none {A B} (f : A -> option B) l x : In x l -> f x = None -> mapM f l = None.
Proof.
  induction l as [|y t IH]; intros Hin Hx; [contradiction|]. cbn.
  destruct Hin as [->|Hin]; [now rewrite Hx|]. rewrite (IH Hin Hx). now destruct (f y).
Qed.

Lemma mapM_map {A B C} (f : B -> option C) (g : A -> B) l : mapM f (map g l) = mapM (fun x => f (g x)) l.
Proof. induction l as [|x t IH]; cbn; [reflexivity|now rewrite IH]. Qed.

Definition rowle (p q : pixel) : Prop := row p <= row q.
Definition RowSorted (px : list pixel) : Prop := StronglySorted rowle px.

Lemma ssorted_rowsorted px : SSorted px -> RowSorted px.
Proof.
  intro H. apply (ssorted_map_inv klt fst) in H. revert H. apply sorted_weaken.
  intros a b. unfold klt, rowle, row. lia.
Qed.

(** the predicate of CSRReader's mask for the span [s0, s1) *)
Definition span_pred (j0 j1 s0 s1 : Z) (p : pixel) : bool := inb s0 s1 (row p) && inb j0 j1 (col p).

Lemma reader_noreflect px i0 i1 j0 j1 sp :
  reader px (i0, i1, j0, j1) sp false = filter (span_pred j0 j1 (fst sp) (snd sp)) px.
Proof. reflexivity. Qed.

Lemma window_select_pred px i0 i1 j0 j1 :
  window_select px (i0, i1, j0, j1) = filter (span_pred j0 j1 i0 i1) px.
Proof. reflexivity. Qed.

Lemma filter_span_split px j0 j1 a b c :
  RowSorted px -> a <= b -> b <= c ->
  filter (span_pred j0 j1 a b) px ++ filter (span_pred j0 j1 b c) px = filter (span_pred j0 j1 a c) px.
Proof.
  intros Hs Hab Hbc. induction Hs as [|p t Ht IH Hp]; [reflexivity|].
  destruct (Z_lt_ge_dec (row p) b) as [Hlt|Hge].
  - cbn [filter].
    replace (span_pred j0 j1 b c p) with false by (unfold span_pred, inb; lia).
    replace (span_pred j0 j1 a c p) with (span_pred j0 j1 a b p) by (unfold span_pred, inb; lia).
    destruct (span_pred j0 j1 a b p); cbn [app]; now rewrite IH.
  - (* every remaining row is >= b: the first filter is empty, the other two agree *)
    assert (Hall : forall q, In q (p :: t) -> b <= row q).
    { intros q [<-|Hq]; [lia|]. rewrite Forall_forall in Hp. specialize (Hp q Hq). unfold rowle in Hp. lia. }
    rewrite (filter_none (span_pred j0 j1 a b) (p :: t)).
    + apply filter_ext_in. intros q Hq. specialize (Hall q Hq). unfold span_pred, inb. lia.
    + intros q Hq. specialize (Hall q Hq). unfold span_pred, inb. lia.
Qed.

(** without an order on the table two adjacent spans still share out the records of their union *)
Lemma filter_span_perm px j0 j1 a b c :
  a <= b -> b <= c ->
  Permutation (filter (span_pred j0 j1 a b) px ++ filter (span_pred j0 j1 b c) px) (filter (span_pred j0 j1 a c) px).
Proof.
  intros Hab Hbc. induction px as [|p t IH]; [reflexivity|]. cbn [filter].
  destruct (Z_lt_ge_dec (row p) b) as [Hlt|Hge].
  - replace (span_pred j0 j1 b c p) with false by (unfold span_pred, inb; lia).
    replace (span_pred j0 j1 a c p) with (span_pred j0 j1 a b p) by (unfold span_pred, inb; lia).
    destruct (span_pred j0 j1 a b p); [now apply perm_skip|exact IH].
  - replace (span_pred j0 j1 a b p) with false by (unfold span_pred, inb; lia).
    replace (span_pred j0 j1 a c p) with (span_pred j0 j1 b c p) by (unfold span_pred, inb; lia).
    destruct (span_pred j0 j1 b c p); [|exact IH]. rewrite <- Permutation_middle. now apply perm_skip.
Qed.

Lemma spans_of_cons a b t : spans_of (a :: b :: t) = (a, b) :: spans_of (b :: t).
Proof. reflexivity. Qed.

(** the chunks of a chain of cuts, put together, are the records between its first and its last cut: in storage order
    when the table is row-sorted, in some order when it is not *)
Lemma direct_concat_chain px j0 j1 i0 i1 cuts d :
  Sorted Z.le cuts ->
  Permutation (concat (map (fun sp => reader px (i0, i1, j0, j1) sp false) (spans_of cuts)))
              (filter (span_pred j0 j1 (hd d cuts) (last cuts d)) px) /\
  (RowSorted px -> concat (map (fun sp => reader px (i0, i1, j0, j1) sp false) (spans_of cuts))
                   = filter (span_pred j0 j1 (hd d cuts) (last cuts d)) px).
Proof.
  intro Hc. induction cuts as [|a [|b t] IH];
    try (cbn; rewrite filter_none by (intros; unfold span_pred, inb; lia); now split).
  rewrite spans_of_cons. cbn [map concat]. rewrite reader_noreflect. cbn [fst snd hd].
  apply Sorted_inv in Hc as [Hc Hab]. apply HdRel_inv in Hab. destruct (IH Hc) as [IHp IHe].
  pose proof (sorted_le_last _ d (Sorted_StronglySorted Z.le_trans Hc) b (or_introl eq_refl)). change (last (a :: b :: t) d) with (last (b :: t) d). split.
  - rewrite IHp. now apply filter_span_perm.
  - intro Hs. rewrite (IHe Hs). now apply filter_span_split.
Qed.

(** what the theorem needs of a chunking of the row range: a non-decreasing chain of cuts that starts at the
    first row of the box, stays inside it and leaves no pixel of the window behind its last cut
    (CSRReader.get_spans stops at the first row from which on the offsets no longer grow) *)
Definition AdmissibleCuts (px : list pixel) (bb : bbox) (cuts : list Z) : Prop :=
  let '(i0, i1, j0, j1) := bb in
  Sorted Z.le cuts /\ hd i0 cuts = i0 /\ last cuts i0 <= i1 /\
  forall p, In p px -> span_pred j0 j1 i0 i1 p = true -> row p < last cuts i0.

Lemma admissible_window px i0 i1 j0 j1 cuts :
  AdmissibleCuts px (i0, i1, j0, j1) cuts ->
  filter (span_pred j0 j1 (hd i0 cuts) (last cuts i0)) px = window_select px (i0, i1, j0, j1).
Proof.
  intros (_ & -> & Hle & Hcov). rewrite window_select_pred. apply filter_ext_in. intros q Hq. specialize (Hcov q Hq).
  unfold span_pred, inb in *. lia.
Qed.

Theorem direct_chunks_concat px bb cuts :
  RowSorted px -> AdmissibleCuts px bb (cuts bb) ->
  concat (direct_chunks px bb cuts) = window_select px bb.
Proof.
  destruct bb as [[[i0 i1] j0] j1]. intros Hs Ha. rewrite <- (admissible_window _ _ _ _ _ _ Ha).
  now apply (direct_concat_chain px j0 j1 i0 i1 _ i0 (proj1 Ha)).
Qed.

Lemma direct_chunks_perm px bb cuts :
  AdmissibleCuts px bb (cuts bb) -> Permutation (concat (direct_chunks px bb cuts)) (window_select px bb).
Proof.
  destruct bb as [[[i0 i1] j0] j1]. intro Ha. rewrite <- (admissible_window _ _ _ _ _ _ Ha).
  apply (direct_concat_chain px j0 j1 i0 i1 _ i0 (proj1 Ha)).
Qed.

Lemma annot_chunk_app c o a b :
  annot_chunk c o (a ++ b) = oapp (annot_chunk c o a) (annot_chunk c o b).
Proof.
  unfold annot_chunk. destruct (annot_row c o (0, 0, 0)); [apply mapM_app|reflexivity].
Qed.

Lemma annot_chunks_concat c o chunks :
  chunks <> [] ->
  option_map (@concat drow) (mapM (annot_chunk c o) chunks) = annot_chunk c o (concat chunks).
Proof.
  induction chunks as [|ch [|ch2 t] IH]; intro Hne; [contradiction| |].
  - cbn [mapM concat]. rewrite app_nil_r. destruct (annot_chunk c o ch); cbn [option_map concat]; [now rewrite app_nil_r|reflexivity].
  - change (concat (ch :: ch2 :: t)) with (ch ++ concat (ch2 :: t)).
    rewrite annot_chunk_app, <- IH by discriminate. cbn [mapM].
    destruct (annot_chunk c o ch); [|reflexivity].
    destruct (annot_chunk c o ch2); [|reflexivity]. destruct (mapM (annot_chunk c o) t); reflexivity.
Qed.

Definition no_weights (c : dcooler) : bool := match d_weight c with None => true | Some _ => false end.
Definition body_of (rows : list drow) : list line := map (fun r => Data (map snd r)) rows.

(** the text of the pixel dump when the engine yields [chunks] and these, put together, hold the records [px]: nothing at
    all when there is no chunk, otherwise the annotated records, preceded by the header when requested *)
Definition dump_text {A} (c : dcooler) (o : dopts) (chunks : list A) (px : list pixel) : option (list line) :=
  if o_balanced o && no_weights c then None
  else match chunks with
       | [] => Some []
       | _ :: _ =>
           match annot_chunk c o px with
           | None => None
           | Some rows =>
               match o_header o, header_of c o with
               | true, Some h => Some (Header h :: body_of rows)
               | _, _ => Some (body_of rows)
               end
           end
       end.

Lemma dump_of_chunks c o cuts chunks :
  engine_chunks c o cuts = Some chunks -> dump_pixels c o cuts = dump_text c o chunks (concat chunks).
Proof.
  intro He. unfold dump_text, dump_pixels, no_weights. rewrite He.
  destruct (o_balanced o && match d_weight c with None => true | Some _ => false end); [reflexivity|].
  destruct chunks as [|ch t]; [reflexivity|].
  rewrite <- (annot_chunks_concat c o (ch :: t)) by discriminate.
  destruct (mapM (annot_chunk c o) (ch :: t)) as [rows|]; [|reflexivity].
  cbn [option_map]. unfold body_of. destruct (o_header o), (header_of c o); reflexivity.
Qed.

(** direct engine: the data lines are the annotated window filter of the stored table, in storage order, for every
    admissible chunking *)
Theorem dump_eq_query_direct c o cuts :
  o_fill o && d_symm c = false ->
  RowSorted (d_px c) ->
  AdmissibleCuts (d_px c) (bbox_of c o) (cuts (bbox_of c o)) ->
  dump_pixels c o cuts =
    if o_balanced o && no_weights c then None
    else match spans_of (cuts (bbox_of c o)) with
         | [] => Some []
         | _ :: _ =>
             match annot_chunk c o (window_select (d_px c) (bbox_of c o)) with
             | None => None
             | Some rows =>
                 match o_header o, header_of c o with
                 | true, Some h => Some (Header h :: body_of rows)
                 | _, _ => Some (body_of rows)
                 end
             end
         end.
Proof.
  intros Hd Hs Ha.
  rewrite (dump_of_chunks c o cuts (direct_chunks (d_px c) (bbox_of c o) cuts)).
  2:{ unfold engine_chunks. now rewrite Hd. }
  rewrite (direct_chunks_concat _ _ _ Hs Ha).
  unfold dump_text, direct_chunks. destruct (spans_of (cuts (bbox_of c o))); reflexivity.
Qed.

(** chunk-size independence of the whole text: two admissible chunkings that both yield at least one chunk (or both none) *)
Corollary dump_chunk_independent c o cuts1 cuts2 :
  o_fill o && d_symm c = false ->
  RowSorted (d_px c) ->
  AdmissibleCuts (d_px c) (bbox_of c o) (cuts1 (bbox_of c o)) ->
  AdmissibleCuts (d_px c) (bbox_of c o) (cuts2 (bbox_of c o)) ->
  (spans_of (cuts1 (bbox_of c o)) = [] <-> spans_of (cuts2 (bbox_of c o)) = []) ->
  dump_pixels c o cuts1 = dump_pixels c o cuts2.
Proof.
  intros Hd Hs H1 H2 Hne. rewrite !dump_eq_query_direct by assumption.
  destruct (spans_of (cuts1 (bbox_of c o))), (spans_of (cuts2 (bbox_of c o))); try reflexivity.
  - discriminate (proj1 Hne eq_refl).
  - discriminate (proj2 Hne eq_refl).
Qed.

Definition Upper (px : list pixel) : Prop := forall p, In p px -> row p <= col p.
Definition InSymm (px : list pixel) (q : pixel) : Prop := In q px \/ (row q <> col q /\ In (flip q) px).

Lemma flip_flip p : flip (flip p) = p.
Proof. destruct p as [[a b] c]; reflexivity. Qed.

Lemma flip_inj : Injective flip.
Proof. intros p q H. rewrite <- (flip_flip p), <- (flip_flip q). now rewrite H. Qed.

Lemma in_map_flip q l : In q (map flip l) <-> In (flip q) l.
Proof.
  rewrite in_map_iff. split.
  - intros (x & <- & Hx). now rewrite flip_flip.
  - intro H. exists (flip q). now rewrite flip_flip.
Qed.

Lemma InSymm_flip px q : InSymm px (flip q) <-> InSymm px q.
Proof.
  unfold InSymm. rewrite flip_flip. destruct q as [[a b] v]. unfold flip, row, col. cbn [fst snd].
  destruct (Z.eq_dec a b) as [->|Hne]; [tauto|]. assert (b <> a) by congruence. tauto.
Qed.

Lemma in_window_iff i0 i1 j0 j1 q :
  in_window (i0, i1, j0, j1) (fst q) = true <-> i0 <= row q < i1 /\ j0 <= col q < j1.
Proof. unfold in_window, inb, row, col. lia. Qed.

(** what CSRReader appends with reflect=True to the records [base] it has read: the mirror images of
    the off-diagonal ones whose column lies before row [i1] *)
Definition reflected (i1 : Z) (base : list pixel) : list pixel :=
  base ++ map flip (filter (fun p => negb (row p =? col p) && (col p <? i1)) base).

Lemma reader_reflected px i0 i1 j0 j1 sp :
  reader px (i0, i1, j0, j1) sp true = reflected i1 (reader px (i0, i1, j0, j1) sp false).
Proof. reflexivity. Qed.

Lemma in_reflected i1 base q :
  In q (reflected i1 base) <-> In q base \/ (In (flip q) base /\ row q <> col q /\ row q < i1).
Proof.
  unfold reflected. rewrite in_app_iff, in_map_flip, filter_In. apply or_iff_compat_l, and_iff_compat_l.
  destruct q as [[a b] v]. unfold flip, row, col. cbn [fst snd]. lia.
Qed.

Lemma reflected_concat i1 l : Permutation (concat (map (reflected i1) l)) (reflected i1 (concat l)).
Proof.
  unfold reflected. rewrite (concat_app_perm (fun b => b)), map_id, <- concat_filter_map, concat_map, !map_map. reflexivity.
Qed.

Lemma nodup_app_flip (g : pixel -> bool) base :
  NoDup base -> (forall p, In p base -> row p <= col p) -> (forall p, g p = true -> row p <> col p) ->
  NoDup (base ++ map flip (filter g base)).
Proof.
  intros Hn HU Hg. apply NoDup_app_intro.
  - assumption.
  - apply Injective_map_NoDup; [exact flip_inj|]. now apply NoDup_filter.
  - intros q Hq Hf. apply in_map_flip, filter_In in Hf as [Hf Hd].
    apply HU in Hq, Hf. apply Hg in Hd. destruct q as [[a b] v]. unfold flip, row, col in *. cbn [fst snd] in *. lia.
Qed.

Lemma reflected_perm i1 a b : Permutation a b -> Permutation (reflected i1 a) (reflected i1 b).
Proof. intro P. apply Permutation_app; [exact P|]. now apply Permutation_map, Permutation_filter. Qed.

Lemma reader_chunks_perm px i0 i1 j0 j1 cuts :
  AdmissibleCuts px (i0, i1, j0, j1) cuts ->
  Permutation (concat (map (fun sp => reader px (i0, i1, j0, j1) sp true) (spans_of cuts)))
              (reader px (i0, i1, j0, j1) (i0, i1) true).
Proof.
  intro Ha. change (reader px (i0, i1, j0, j1) (i0, i1) true) with (reflected i1 (window_select px (i0, i1, j0, j1))).
  rewrite <- (reflected_perm _ _ _ (direct_chunks_perm px _ (fun _ => cuts) Ha)), <- reflected_concat.
  unfold direct_chunks. now rewrite map_map.
Qed.

(** one task of the plan read in a single span *)
Definition fill_whole (px : list pixel) (t : bool * bbox) : list pixel :=
  let '(i0, i1, j0, j1) := snd t in
  let r := reader px (snd t) (i0, i1) true in if fst t then map flip r else r.

Lemma fill_task_perm px cuts t :
  AdmissibleCuts px (snd t) (cuts (snd t)) -> Permutation (concat (fill_task px cuts t)) (fill_whole px t).
Proof.
  destruct t as [tr [[[i0 i1] j0] j1]]. cbn [snd]. intro Ha. unfold fill_task, fill_whole. cbn [fst snd].
  destruct tr.
  - rewrite <- (map_map (fun sp => reader px (i0, i1, j0, j1) sp true) (map flip)), <- concat_map.
    apply Permutation_map. now apply reader_chunks_perm.
  - now apply reader_chunks_perm.
Qed.

Lemma in_fill_task px cuts t q :
  AdmissibleCuts px (snd t) (cuts (snd t)) -> (In q (concat (fill_task px cuts t)) <-> In q (fill_whole px t)).
Proof. intro Ha. split; apply Permutation_in; [|symmetry]; now apply fill_task_perm. Qed.

Lemma nodup_fill_whole px t : Upper px -> NoDup px -> NoDup (fill_whole px t).
Proof.
  destruct t as [tr [[[i0 i1] j0] j1]]. intros HU Hn.
  assert (H : NoDup (reader px (i0, i1, j0, j1) (i0, i1) true)).
  { apply nodup_app_flip; [now apply NoDup_filter| |intro p; lia]. intros p Hp. apply filter_In in Hp. now apply HU. }
  unfold fill_whole. cbn [fst snd]. destruct tr; [apply Injective_map_NoDup; [exact flip_inj|]|]; exact H.
Qed.

(** the coordinates a reflecting read of the whole box yields from an upper-triangular table: those of the box on or
    above the diagonal, and the mirror images, strictly below the diagonal, of those whose column lies before row i1 *)
Definition reads (bb : bbox) (q : pixel) : bool :=
  let '(i0, i1, j0, j1) := bb in
  (row q <=? col q) && inb i0 i1 (row q) && inb j0 j1 (col q)
  || (col q <? row q) && inb i0 i1 (col q) && inb j0 j1 (row q) && (row q <? i1).
Definition orient (tr : bool) (q : pixel) : pixel := if tr then flip q else q.
Definition covers (t : bool * bbox) (q : pixel) : bool := reads (snd t) (orient (fst t) q).

Lemma orient_negb tr q : orient (negb tr) q = flip (orient tr q).
Proof. destruct tr; [symmetry; apply flip_flip|reflexivity]. Qed.

Lemma in_fill_whole px t q : Upper px -> (In q (fill_whole px t) <-> InSymm px q /\ covers t q = true).
Proof.
  intro HU. destruct t as [tr [[[i0 i1] j0] j1]].
  assert (H : forall q, In q (reader px (i0, i1, j0, j1) (i0, i1) true) <-> InSymm px q /\ reads (i0, i1, j0, j1) q = true).
  { clear q. intro q. rewrite reader_reflected, in_reflected, !reader_noreflect, !filter_In. unfold InSymm.
    pose proof (HU q) as Hq. pose proof (HU (flip q)) as Hf.
    destruct q as [[a b] v]. unfold reads, span_pred, inb, flip, row, col in *. cbn [fst snd] in *. split.
    - intros [[Hp Hw]|[[Hp Hw] Hd]]; [specialize (Hq Hp)|specialize (Hf Hp)]; (split; [tauto|lia]).
    - intros [[Hp|[Hd Hp]] Hr]; [specialize (Hq Hp); left|specialize (Hf Hp); right]; repeat split; try assumption; lia. }
  unfold fill_whole, covers, orient. cbn [fst snd]. destruct tr; [|apply H].
  now rewrite in_map_flip, H, InSymm_flip.
Qed.

Lemma comes_before_strict a0 a1 b0 b1 : comes_before a0 a1 b0 b1 true = (a0 <? b0) && (a1 <=? b0).
Proof. unfold comes_before. now destruct (a0 <? b0). Qed.
Lemma comes_before_lax a0 a1 b0 b1 : comes_before a0 a1 b0 b1 false = (a0 <? b0) && (a1 <=? b1).
Proof. unfold comes_before. now destruct (a0 <? b0). Qed.
Lemma contains_spec a0 a1 b0 b1 : contains a0 a1 b0 b1 = (a0 <=? b0) && (b1 <=? a1).
Proof. unfold contains. destruct ((b0 <? a0) || (a1 <? b1)) eqn:E; lia. Qed.

(** FillLowerRangeQuery2D.__init__ after its first step: the box (a0, a1, b0, b1) is the query box, transposed
    (flag [tr]) when needed to make a1 <= b1 *)
Definition upper_plan (tr : bool) (a0 a1 b0 b1 : Z) : option (list (bool * bbox)) :=
  if (a0 =? b0) || comes_before a0 a1 b0 b1 true then Some [(tr, (a0, a1, b0, b1))]
  else if comes_before a0 a1 b0 b1 false then Some [(tr, (a0, b0, b0, b1)); (tr, (b0, a1, b0, b1))]
  else if contains b0 b1 a0 a1 then Some [(negb tr, (b0, a0, a0, a1)); (tr, (a0, a1, a0, b1))]
  else None.

Lemma fill_plan_upper i0 i1 j0 j1 :
  fill_plan (i0, i1, j0, j1) = if j1 <? i1 then upper_plan true j0 j1 i0 i1 else upper_plan false i0 i1 j0 j1.
Proof. unfold fill_plan. now destruct (j1 <? i1). Qed.

(** a box that starts on the diagonal, or lies above it, is read exactly *)
Lemma covers_window tr x0 x1 y0 y1 q :
  (x0 = y0 /\ x1 <= y1) \/ x1 <= y0 ->
  covers (tr, (x0, x1, y0, y1)) q = in_window (x0, x1, y0, y1) (fst (orient tr q)).
Proof.
  intro H. unfold covers. cbn [fst snd]. destruct (orient tr q) as [[r c] v].
  unfold reads, in_window, inb, row, col. cbn [fst snd]. lia.
Qed.

Definition rows_within (lo hi : Z) (t : bool * bbox) : Prop :=
  let '(x0, x1, _, _) := snd t in lo <= x0 /\ x0 <= x1 /\ x1 <= hi.

(** the tasks of a plan partition the window: every coordinate of the window is read by one task, no coordinate by two,
    none outside; in particular a plan exists.  The row range of every task stays within the hull of the two ranges. *)
Lemma upper_plan_partition tr a0 a1 b0 b1 :
  a0 <= a1 -> b0 <= b1 -> a1 <= b1 ->
  match upper_plan tr a0 a1 b0 b1 with
  | Some plan =>
      (forall q, existsb (fun t => covers t q) plan = in_window (a0, a1, b0, b1) (fst (orient tr q))) /\
      ForallOrdPairs (fun t u => forall q, covers t q && covers u q = false) plan /\
      Forall (rows_within (Z.min a0 b0) b1) plan
  | None => False
  end.
Proof.
  intros Ha Hb Hab. unfold upper_plan. rewrite comes_before_strict, comes_before_lax, contains_spec.
  (* [a0, a1) against [b0, b1), where a1 <= b1: starting with it or wholly before it (one box); reaching into it from the
     left (the rows before b0, those from b0 on); inside it (the columns before a0, read transposed, those from a0 on).
     Each of these boxes starts on the diagonal or lies above it, so [covers_window] turns what it covers into window
     membership; what is left is linear arithmetic on the coordinates of q. *)
  destruct ((a0 =? b0) || (a0 <? b0) && (a1 <=? b0)) eqn:E1;
    [|destruct ((a0 <? b0) && (a1 <=? b1)) eqn:E2; [|destruct ((b0 <=? a0) && (a1 <=? b1)) eqn:E3; [|lia]]];
    (split; [|split; [repeat constructor|repeat constructor; lia]]);
    intro q; cbn [existsb]; rewrite !covers_window, ?orient_negb by lia;
    destruct (orient tr q) as [[r c] v]; unfold in_window, inb, flip, row, col; cbn [fst snd]; lia.
Qed.

Lemma fill_plan_partition i0 i1 j0 j1 :
  i0 <= i1 -> j0 <= j1 ->
  match fill_plan (i0, i1, j0, j1) with
  | Some plan =>
      (forall q, existsb (fun t => covers t q) plan = in_window (i0, i1, j0, j1) (fst q)) /\
      ForallOrdPairs (fun t u => forall q, covers t q && covers u q = false) plan /\
      Forall (rows_within (Z.min i0 j0) (Z.max i1 j1)) plan
  | None => False
  end.
Proof.
  intros Hi Hj. rewrite fill_plan_upper. destruct (j1 <? i1) eqn:E.
  - pose proof (upper_plan_partition true j0 j1 i0 i1 Hj Hi ltac:(lia)) as H.
    destruct (upper_plan true j0 j1 i0 i1); [|exact H]. destruct H as (Hc & Hd & Hr). repeat split; [|exact Hd|].
    + intro q. rewrite Hc. apply andb_comm.
    + now rewrite Z.min_comm, Z.max_l by lia.
  - rewrite Z.max_r by lia. apply (upper_plan_partition false); lia.
Qed.

(** every sub-box of the engine's plan is chunked admissibly *)
Definition PlanAdmissible (px : list pixel) (bb : bbox) (cuts : bbox -> list Z) : Prop :=
  forall plan t, fill_plan bb = Some plan -> In t plan -> AdmissibleCuts px (snd t) (cuts (snd t)).

(** fill-lower engine, membership: for an upper-triangular table and every admissible chunking the
    engine's records are exactly the records of the symmetric completion that lie inside the window *)
Theorem fill_chunks_in px i0 i1 j0 j1 cuts :
  Upper px -> i0 <= i1 -> j0 <= j1 -> PlanAdmissible px (i0, i1, j0, j1) cuts ->
  exists chunks, fill_chunks px (i0, i1, j0, j1) cuts = Some chunks /\
    forall q, In q (concat chunks) <-> (InSymm px q /\ i0 <= row q < i1 /\ j0 <= col q < j1).
Proof.
  intros HU Hi Hj Ha. pose proof (fill_plan_partition i0 i1 j0 j1 Hi Hj) as H. unfold fill_chunks, PlanAdmissible in *.
  revert H Ha. destruct (fill_plan (i0, i1, j0, j1)) as [plan|]; intros H Ha; [|contradiction]. cbn [option_map].
  eexists. split; [reflexivity|]. intro q.
  rewrite concat_concat_map, in_concat_map, <- in_window_iff, <- (proj1 H), existsb_exists. split.
  - intros (t & Ht & Hq). apply (in_fill_task px cuts t q (Ha plan t eq_refl Ht)), (in_fill_whole px t q HU) in Hq.
    split; [tauto|]. exists t. tauto.
  - intros (Hs & t & Ht & Hc). exists t. split; [assumption|].
    now apply (in_fill_task px cuts t q (Ha plan t eq_refl Ht)), (in_fill_whole px t q HU).
Qed.

(** the specification the fill-lower dump is compared with: the symmetric completion inside the window *)
Definition fill_spec (px : list pixel) (bb : bbox) : list pixel :=
  filter (fun p => in_window bb (fst p)) (symm_completion px).

Lemma in_fill_spec px i0 i1 j0 j1 q :
  In q (fill_spec px (i0, i1, j0, j1)) <-> InSymm px q /\ i0 <= row q < i1 /\ j0 <= col q < j1.
Proof.
  unfold fill_spec, symm_completion, InSymm. rewrite filter_In, in_window_iff, in_app_iff, in_map_flip, filter_In.
  apply and_iff_compat_r, or_iff_compat_l. rewrite and_comm. apply and_iff_compat_r.
  destruct q as [[a b] v]. unfold flip, row, col. cbn [fst snd]. lia.
Qed.

Lemma nodup_fill_spec px bb : Upper px -> NoDup px -> NoDup (fill_spec px bb).
Proof. intros HU Hn. apply NoDup_filter, nodup_app_flip; try assumption. intro p. lia. Qed.

(** fill-lower engine: exactly the symmetric completion inside the window, each record once.
    No order on the table is needed: the model's reader masks the whole table by row span. *)
Theorem fill_chunks_perm px i0 i1 j0 j1 cuts :
  Upper px -> NoDup px -> i0 <= i1 -> j0 <= j1 -> PlanAdmissible px (i0, i1, j0, j1) cuts ->
  exists chunks, fill_chunks px (i0, i1, j0, j1) cuts = Some chunks /\
    Permutation (concat chunks) (fill_spec px (i0, i1, j0, j1)) /\ NoDup (concat chunks).
Proof.
  intros HU Hn Hi Hj Ha.
  pose proof (fill_plan_partition i0 i1 j0 j1 Hi Hj) as H.
  destruct (fill_chunks_in px i0 i1 j0 j1 cuts HU Hi Hj Ha) as (chunks & Hc & Hin). exists chunks. split; [exact Hc|].
  unfold fill_chunks, PlanAdmissible in *. revert H Ha Hc.
  destruct (fill_plan (i0, i1, j0, j1)) as [plan|]; intros H Ha Hc; [|discriminate]. injection Hc as <-.
  assert (Hnd : NoDup (concat (concat (map (fill_task px cuts) plan)))).
  { rewrite concat_concat_map. apply (nodup_concat_map _ covers); [| |apply H].
    - intros t q Ht Hq. now apply (in_fill_task px cuts t q (Ha plan t eq_refl Ht)), (in_fill_whole px t q HU) in Hq.
    - intros t Ht. apply (Permutation_NoDup (Permutation_sym (fill_task_perm px cuts t (Ha plan t eq_refl Ht)))).
      now apply nodup_fill_whole. }
  split; [|exact Hnd].
  apply NoDup_Permutation; [exact Hnd|now apply nodup_fill_spec|].
  intro q. rewrite (Hin q). symmetry. apply in_fill_spec.
Qed.

(** [o] with one option set: the options record of Model/Dump.v has no update functions *)
Definition with_ids1 (o : dopts) (b : bool) : dopts :=
  {| o_range := o_range o; o_fill := o_fill o; o_balanced := o_balanced o; o_join := o_join o; o_annot := o_annot o;
     o_ids1 := b; o_starts1 := o_starts1 o; o_columns := o_columns o; o_header := o_header o |}.
Definition with_starts1 (o : dopts) (b : bool) : dopts :=
  {| o_range := o_range o; o_fill := o_fill o; o_balanced := o_balanced o; o_join := o_join o; o_annot := o_annot o;
     o_ids1 := o_ids1 o; o_starts1 := b; o_columns := o_columns o; o_header := o_header o |}.
Definition with_columns (o : dopts) (cs : option (list string)) : dopts :=
  {| o_range := o_range o; o_fill := o_fill o; o_balanced := o_balanced o; o_join := o_join o; o_annot := o_annot o;
     o_ids1 := o_ids1 o; o_starts1 := o_starts1 o; o_columns := cs; o_header := o_header o |}.

Definition inc_cell (x : cell) : cell := match x with CZ z => CZ (z + 1) | y => y end.

Lemma assoc_bump names r n :
  assoc n (bump names r) = option_map (fun v => if mem_str n names then inc_cell v else v) (assoc n r).
Proof.
  induction r as [|[m v] t IH]; [reflexivity|]. cbn.
  destruct (mem_str m names) eqn:Em; cbn; destruct (String.eqb n m) eqn:E; try apply IH.
  - apply String.eqb_eq in E. subst. cbn. rewrite Em. now destruct v.
  - apply String.eqb_eq in E. subst. cbn. now rewrite Em.
Qed.

Lemma bump_names names r : map fst (bump names r) = map fst r.
Proof.
  unfold bump. rewrite map_map. apply map_ext. intros [m v]. cbn. now destruct (mem_str m names).
Qed.

Lemma bump_comm a b r : bump a (bump b r) = bump b (bump a r).
Proof.
  unfold bump. rewrite !map_map. apply map_ext. intros [m v]. cbn [fst snd].
  destruct (mem_str m b) eqn:Eb; cbn [fst snd]; destruct (mem_str m a) eqn:Ea; cbn [fst snd]; rewrite ?Eb, ?Ea; try reflexivity.
Qed.

Lemma project_bump names cols r :
  project cols (bump names r) = option_map (bump names) (project cols r).
Proof.
  induction cols as [|n t IH]; [reflexivity|]. cbn [project]. rewrite assoc_bump, IH.
  destruct (assoc n r) as [v|]; cbn [option_map]; [|reflexivity].
  destruct (project t r) as [d|]; cbn [option_map]; [|reflexivity].
  f_equal. unfold bump. cbn [map fst snd]. destruct (mem_str n names); [destruct v|]; reflexivity.
Qed.

Lemma project_spec cols r r' :
  project cols r = Some r' -> map fst r' = cols /\ forall n, In n cols -> assoc n r' = assoc n r.
Proof.
  revert r'. induction cols as [|n t IH]; intros r' H; cbn in H.
  - injection H as <-. split; [reflexivity|contradiction].
  - destruct (assoc n r) as [v|] eqn:Ev; [|discriminate]. destruct (project t r) as [r''|]; [|discriminate].
    injection H as <-. destruct (IH r'' eq_refl) as [Hn Ha]. split; [cbn; now rewrite Hn|].
    intros m [<-|Hm]; cbn.
    + now rewrite String.eqb_refl.
    + destruct (String.eqb m n) eqn:E; [apply String.eqb_eq in E; now subst|now apply Ha].
Qed.

(** annotator errors do not depend on the record (they are column-level) *)
Lemma side_cols_none_indep c fs suf i j : side_cols c fs suf i = None -> side_cols c fs suf j = None.
Proof.
  unfold side_cols. induction fs as [|f t IH]; cbn; [discriminate|].
  (* whether a field is refused depends on its name and on whether weights are stored *)
  assert (Hf : bin_field c f i = None <-> bin_field c f j = None).
  { unfold bin_field.
    destruct (String.eqb f "chrom"), (String.eqb f "start"), (String.eqb f "end"), (String.eqb f "weight"), (d_weight c);
      try tauto; split; discriminate. }
  destruct (bin_field c f i) eqn:Ei; cbn.
  - destruct (bin_field c f j) eqn:Ej; cbn; [|reflexivity].
    destruct (mapM _ t) eqn:Et at 1; [discriminate|]. intros _.
    rewrite IH; [reflexivity|]. exact Et.
  - intros _. destruct Hf as [Hf _]. now rewrite (Hf eq_refl).
Qed.

Section SortBy.
  Context {A : Type} (key : A -> Z).

  Lemma insert_by_perm x l : Permutation (insert_by key x l) (x :: l).
  Proof.
    induction l as [|y t IH]; cbn; [reflexivity|].
    destruct (key x <=? key y); [reflexivity|].
    rewrite IH. apply perm_swap.
  Qed.

  Lemma sort_by_perm l : Permutation (sort_by key l) l.
  Proof.
    induction l as [|x t IH]; cbn; [reflexivity|].
    unfold sort_by in *. cbn. rewrite insert_by_perm. now constructor.
  Qed.

  Lemma insert_by_sorted x l :
    StronglySorted Z.le (map key l) -> StronglySorted Z.le (map key (insert_by key x l)).
  Proof.
    induction l as [|y t IH]; cbn [map insert_by]; intro H; [repeat constructor|].
    apply StronglySorted_inv in H as [Ht Hy]. destruct (key x <=? key y) eqn:E; cbn [map].
    - repeat constructor; try assumption; [lia|]. eapply Forall_impl; [|exact Hy]. cbn. lia.
    - constructor; [now apply IH|].
      apply (Permutation_Forall (Permutation_sym (Permutation_map key (insert_by_perm x t)))).
      constructor; [lia|exact Hy].
  Qed.

  Lemma sort_by_sorted l : StronglySorted Z.le (map key (sort_by key l)).
  Proof.
    induction l as [|x t IH]; [constructor|]. unfold sort_by in *. cbn. now apply insert_by_sorted.
  Qed.
End SortBy.

Lemma sort_uniq_id l : StronglySorted Z.le l -> NoDup l -> sort_uniq l = l.
Proof.
  induction 1 as [|x t Ht IH Hx]; intro Hn; [reflexivity|]. apply NoDup_cons_iff in Hn as [Hnx Hn].
  unfold sort_uniq in *. cbn. rewrite (IH Hn). destruct t as [|y t']; [reflexivity|].
  cbn. apply Forall_inv in Hx. assert (x <> y) by (intros ->; apply Hnx; now left).
  now replace (x <? y) with true by lia.
Qed.

Lemma assoc_map_self {B} (g : string -> B) l n :
  In n l -> assoc n (map (fun m => (m, g m)) l) = Some (g n).
Proof.
  induction l as [|m t IH]; intro Hin; [contradiction|]. cbn.
  destruct (String.eqb n m) eqn:E.
  - apply String.eqb_eq in E. now subst.
  - destruct Hin as [->|Hin]; [now rewrite String.eqb_refl in E|now apply IH].
Qed.

(** pandas gives every name the column whose number is its own, whenever the names are handed over
    sorted by their (pairwise distinct) numbers *)
Lemma pandas_read_row_sorted (num : string -> Z) names rec :
  StronglySorted Z.le (map num names) -> NoDup (map num names) ->
  (forall n, In n names -> 0 <= num n < Z.of_nat (length rec)) ->
  pandas_read_row (map num names) names rec
  = Some (map (fun n => (n, nth (Z.to_nat (num n)) rec EmptyString)) names).
Proof.
  intros Hs Hd Hr. unfold pandas_read_row. rewrite (sort_uniq_id _ Hs Hd), map_length, Nat.eqb_refl.
  clear Hs Hd. induction names as [|n t IH]; [reflexivity|]. cbn.
  assert (Hn : 0 <= num n < Z.of_nat (length rec)) by (apply Hr; now left).
  rewrite (nth_error_nth' rec EmptyString) by lia. cbn.
  rewrite IH; [reflexivity|]. intros m Hm. apply Hr. now right.
Qed.

(** for ANY injective assignment of column numbers (ascending or not, with gaps), every declared
    field receives the text of its own column *)
Theorem read_fields_spec names nums rec :
  NoDup (map (num_of nums) names) ->
  (forall n, In n names -> 0 <= num_of nums n < Z.of_nat (length rec)) ->
  exists r, read_fields names nums rec = Some r /\
            Permutation (map fst r) names /\
            forall n, In n names -> assoc n r = Some (nth (Z.to_nat (num_of nums n)) rec EmptyString).
Proof.
  intros Hinj Hr. set (num := num_of nums) in *. set (names' := sort_by num names).
  assert (Hp : Permutation names' names) by apply sort_by_perm.
  assert (Hd : NoDup (map num names')).
  { apply (Permutation_NoDup (l := map num names)); [|assumption]. apply Permutation_map. now symmetry. }
  exists (map (fun n => (n, nth (Z.to_nat (num n)) rec EmptyString)) names').
  split; [|split].
  - unfold read_fields. fold num. fold names'. apply pandas_read_row_sorted; [apply sort_by_sorted|assumption|].
    intros n Hn. apply Hr. now apply (Permutation_in _ Hp).
  - rewrite map_map. cbn. now rewrite map_id.
  - intros n Hn. apply (assoc_map_self (fun m => nth (Z.to_nat (num m)) rec EmptyString)).
    apply (Permutation_in _ (Permutation_sym Hp)). assumption.
Qed.

(** `cload pairs -c1 a -p1 b -c2 c -p2 d` with ANY pairwise distinct one-based field numbers (any permutation, any gaps):
    the schema is accepted and every positional field receives the text of its own column *)
Theorem cload_positional_any_layout c1 p1 c2 p2 rec :
  1 <= c1 <= Z.of_nat (length rec) -> 1 <= p1 <= Z.of_nat (length rec) ->
  1 <= c2 <= Z.of_nat (length rec) -> 1 <= p2 <= Z.of_nat (length rec) ->
  NoDup [c1; p1; c2; p2] ->
  exists s r, cload_schema c1 p1 c2 p2 [] = Some s /\ s_out s = ["count"%string] /\
    read_fields (s_in s) (s_num s) rec = Some r /\
    assoc "chrom1" r = Some (nth (Z.to_nat (c1 - 1)) rec EmptyString) /\
    assoc "pos1" r = Some (nth (Z.to_nat (p1 - 1)) rec EmptyString) /\
    assoc "chrom2" r = Some (nth (Z.to_nat (c2 - 1)) rec EmptyString) /\
    assoc "pos2" r = Some (nth (Z.to_nat (p2 - 1)) rec EmptyString).
Proof.
  intros H1 H2 H3 H4 Hn.
  set (s := {| s_in := ["chrom1"; "pos1"; "chrom2"; "pos2"]%string;
               s_num := [("chrom1", c1 - 1); ("pos1", p1 - 1); ("chrom2", c2 - 1); ("pos2", p2 - 1)]%string;
               s_out := ["count"%string] |}).
  assert (Es : cload_schema c1 p1 c2 p2 [] = Some s).
  { unfold cload_schema. replace ((c1 =? 0) || (p1 =? 0) || (c2 =? 0) || (p2 =? 0)) with false by lia. reflexivity. }
  destruct (read_fields_spec (s_in s) (s_num s) rec) as (r & Hr & _ & Ha).
  - change (NoDup (map (fun k => k - 1) [c1; p1; c2; p2])). apply Injective_map_NoDup; [intros x y; lia|exact Hn].
  - intros n Hin. cbn in Hin. destruct Hin as [<-|[<-|[<-|[<-|[]]]]]; cbn; lia.
  - exists s, r. split; [exact Es|]. split; [reflexivity|]. split; [exact Hr|].
    repeat split; apply Ha; cbn [s_in s In]; tauto.
Qed.

Lemma parse_print_Z z : parse_Z (print_Z z) = Some z.
Proof.
  unfold parse_Z, print_Z. rewrite NilEmpty.isi. cbn. now rewrite DecimalZ.of_to.
Qed.

Fixpoint has_char (c : ascii) (s : string) : bool :=
  match s with EmptyString => false | String a r => Ascii.eqb a c || has_char c r end.

Lemma append_assoc' (a b c : string) : append (append a b) c = append a (append b c).
Proof. induction a as [|x t IH]; cbn; [reflexivity|now rewrite IH]. Qed.
Lemma append_nil_r (a : string) : append a EmptyString = a.
Proof. induction a as [|x t IH]; cbn; [reflexivity|now rewrite IH]. Qed.

Lemma split_aux_nosep sep s cur : has_char sep s = false -> split_aux sep s cur = [append cur s].
Proof.
  revert cur. induction s as [|a r IH]; intros cur H; cbn in *.
  - now rewrite append_nil_r.
  - apply orb_false_elim in H as [Ha Hr]. rewrite Ha. rewrite (IH _ Hr). now rewrite append_assoc'.
Qed.

Lemma split_aux_first sep s1 s2 cur :
  has_char sep s1 = false ->
  split_aux sep (append s1 (String sep s2)) cur = append cur s1 :: split_aux sep s2 EmptyString.
Proof.
  revert cur. induction s1 as [|a r IH]; intros cur H; cbn in *.
  - rewrite Ascii.eqb_refl. now rewrite append_nil_r.
  - apply orb_false_elim in H as [Ha Hr]. rewrite Ha. rewrite (IH _ Hr). now rewrite append_assoc'.
Qed.

Lemma has_char_append c a b : has_char c (append a b) = has_char c a || has_char c b.
Proof. induction a as [|x t IH]; cbn; [reflexivity|]. now rewrite IH, orb_assoc. Qed.

Lemma print_pos_no_sep c k :
  1 <= k -> (c = ":"%char \/ c = "="%char \/ c = ","%char) -> has_char c (print_Z k) = false.
Proof.
  intros Hk Hc. destruct k as [|p|p]; try lia. unfold print_Z. cbn [Z.to_int NilEmpty.string_of_int].
  generalize (Pos.to_uint p) as d.
  destruct Hc as [ -> | [ -> | -> ] ]; induction d; cbn [NilEmpty.string_of_uint has_char]; rewrite ?IHd; reflexivity.
Qed.

(** NAME=VALUE with neither part holding ':' or '=': one ':'-field, two '='-fields *)
Lemma split_name_value name v :
  has_char ":" name = false -> has_char "=" name = false -> has_char ":" v = false -> has_char "=" v = false ->
  split ":" (append name (String "=" v)) = [append name (String "=" v)] /\
  split "=" (append name (String "=" v)) = [name; v].
Proof.
  intros Hc He Hcv Hev. unfold split. split.
  - rewrite split_aux_nosep; [reflexivity|]. rewrite has_char_append. cbn. now rewrite Hc, Hcv.
  - rewrite split_aux_first by assumption. cbn [append]. now rewrite split_aux_nosep.
Qed.

Lemma concat_chunks_fuel {A} fuel n (l : list A) : concat (chunks_fuel fuel n l) = l.
Proof.
  revert l. induction fuel as [|f IH]; intro l; destruct l as [|x t]; try reflexivity.
  - cbn. now rewrite app_nil_r.
  - cbn [chunks_fuel concat]. rewrite IH. apply firstn_skipn.
Qed.

Lemma concat_chunks_of {A} n (l : list A) : concat (chunks_of n l) = l.
Proof. apply concat_chunks_fuel. Qed.

Lemma chunks_fuel_map {A B} (g : A -> B) fuel n l :
  chunks_fuel fuel n (map g l) = map (map g) (chunks_fuel fuel n l).
Proof.
  revert l. induction fuel as [|f IH]; intro l; destruct l as [|x t]; try reflexivity.
  cbn [chunks_fuel map]. change (g x :: map g t) with (map g (x :: t)).
  rewrite firstn_map, skipn_map, IH. reflexivity.
Qed.

Lemma chunks_of_map {A B} (g : A -> B) n l : chunks_of n (map g l) = map (map g) (chunks_of n l).
Proof. unfold chunks_of. rewrite map_length. apply chunks_fuel_map. Qed.

Lemma in_chunk_in {A} n (l : list A) ch x : In ch (chunks_of n l) -> In x ch -> In x l.
Proof.
  intros Hch Hx. rewrite <- (concat_chunks_of n l). apply in_concat. now exists ch.
Qed.

Lemma chunks_fuel_sorted fuel n l : SSorted l -> Forall SSorted (chunks_fuel fuel n l).
Proof.
  revert l. induction fuel as [|f IH]; intros [|x t] Hs; cbn [chunks_fuel].
  1, 3: constructor.
  - constructor; [exact Hs|constructor].
  - rewrite <- (firstn_skipn n (x :: t)) in Hs. unfold SSorted, keys in Hs. rewrite map_app in Hs.
    apply ssorted_app_inv in Hs as [H1 H2]. constructor; [exact H1|now apply IH].
Qed.

Lemma SSorted_no_dup_key l : SSorted l -> has_dup_key l = false.
Proof.
  unfold SSorted, keys. induction l as [|p t IH]; intro H; [reflexivity|].
  cbn in H. apply StronglySorted_inv in H as [Ht Hp]. cbn. rewrite (IH Ht), orb_false_r.
  apply not_true_is_false. intro E. apply existsb_exists in E as (q & Hq & Eq).
  rewrite Forall_forall in Hp. specialize (Hp (fst q) (in_map fst _ _ Hq)).
  apply keqb_eq in Eq. rewrite Eq in Hp. exact (klt_irrefl _ Hp).
Qed.

Lemma chunks_no_dup_key n px : SSorted px -> existsb has_dup_key (chunks_of n px) = false.
Proof.
  intro Hs. apply not_true_is_false. intro X. apply existsb_exists in X as (ch & Hch & Hdup).
  pose proof (chunks_fuel_sorted (length px) n px Hs) as Hall. rewrite Forall_forall in Hall.
  rewrite (SSorted_no_dup_key ch (Hall ch Hch)) in Hdup. discriminate.
Qed.

(** the ids as `cooler dump [--one-based-ids]` prints them *)
Definition shift_ids (one_based : bool) (p : pixel) : pixel :=
  if one_based then ((row p + 1, col p + 1), val p) else p.

(** no record is altered or dropped by the sanitiser: the table is upper triangular, or no triangle action is taken *)
Definition tril_harmless (t : tril) (px : list pixel) : Prop :=
  t = Keep \/ forall p, In p px -> row p <= col p.

Lemma sanitize_shifted ob t px p :
  tril_harmless t px -> In p px -> sanitize_pixel ob t (shift_ids ob p) = [p].
Proof.
  intros Ht Hp. unfold sanitize_pixel.
  replace (if ob then _ else _) with p.
  2:{ destruct p as [[a b] v], ob; unfold shift_ids, row, col, val; cbn [fst snd]; [do 2 f_equal; lia|reflexivity]. }
  destruct Ht as [->|Hu]; [now destruct (col p <? row p)|].
  specialize (Hu p Hp). now replace (col p <? row p) with false by lia.
Qed.

Theorem load_pixels_roundtrip ob t chunk px :
  SSorted px -> tril_harmless t px ->
  load_pixels ob t chunk (map (shift_ids ob) px) = Some px.
Proof.
  intros Hs Ht. unfold load_pixels. rewrite chunks_of_map, map_map.
  assert (E : map (fun ch => concat (map (sanitize_pixel ob t) (map (shift_ids ob) ch))) (chunks_of chunk px)
              = chunks_of chunk px).
  { rewrite <- (map_id (chunks_of chunk px)) at 2. apply map_ext_in. intros ch Hch.
    rewrite map_map, (concat_map_singleton _ (fun p => p)); [apply map_id|].
    intros p Hp. apply (sanitize_shifted ob t px); [assumption|]. now apply (in_chunk_in chunk px ch). }
  rewrite E, (chunks_no_dup_key chunk px Hs), concat_chunks_of. f_equal. now apply aggregate_sorted_id.
Qed.

(** the schema `cooler load -f coo` assembles when no --field is given *)
Definition coo_schema : schema :=
  {| s_in := ["bin1_id"; "bin2_id"; "count"]%string;
     s_num := [("bin1_id", 0); ("bin2_id", 1); ("count", 2)]%string;
     s_out := ["bin1_id"; "bin2_id"; "count"]%string |}.
Lemma load_schema_coo_default : load_schema false [] = Some coo_schema.
Proof. reflexivity. Qed.

Lemma coo_record_printed a b v :
  coo_record coo_schema "count" [print_Z a; print_Z b; print_Z v] = Some ((a, b), v).
Proof.
  unfold coo_record.
  generalize (parse_print_Z a), (parse_print_Z b), (parse_print_Z v).
  generalize (print_Z a), (print_Z b), (print_Z v). intros x y z Hx Hy Hz.
  (* [cbn] does not carry read_fields (a sort of the constant names by their numbers) through to its value on the variable
     texts; vm_compute does, and [change] puts the value in by conversion *)
  let t := eval vm_compute in (read_fields (s_in coo_schema) (s_num coo_schema) [x; y; z]) in
  change (read_fields (s_in coo_schema) (s_num coo_schema) [x; y; z]) with t.
  cbn [assoc String.eqb Ascii.eqb Bool.eqb]. cbn. now rewrite Hx, Hy, Hz.
Qed.

Lemma mapM_coo_text ob px :
  mapM (coo_record coo_schema "count") (coo_text ob px) = Some (map (shift_ids ob) px).
Proof.
  unfold coo_text. rewrite mapM_map. apply mapM_map_total. intros [[a b] v] _. rewrite coo_record_printed.
  unfold shift_ids, row, col, val. cbn [fst snd]. destruct ob; [reflexivity|]. now rewrite !Z.add_0_r.
Qed.

Lemma index_of_nth (l : list string) d : forall i k,
  NoDup l -> (i < length l)%nat -> index_of (nth i l d) l k = Some (k + Z.of_nat i).
Proof.
  induction l as [|a t IH]; intros i k Hn Hi; [cbn in Hi; lia|].
  apply NoDup_cons_iff in Hn as [Ha Hn]. destruct i as [|i']; cbn [nth index_of].
  - rewrite String.eqb_refl. f_equal. lia.
  - cbn in Hi. destruct (String.eqb (nth i' t d) a) eqn:E.
    + apply String.eqb_eq in E. exfalso. apply Ha. rewrite <- E. apply nth_In. lia.
    + rewrite IH by (assumption || lia). f_equal. lia.
Qed.

Definition bin_has (c s : Z) (y : bin) : bool := (bchrom y =? c) && (bstart y <=? s) && (s <? bend y).

Lemma find_bin_from_first bins c s : forall i k x,
  nth_error bins i = Some x -> bin_has c s x = true ->
  (forall j y, (j < i)%nat -> nth_error bins j = Some y -> bin_has c s y = false) ->
  find_bin_from k bins c s = Some (k + Z.of_nat i).
Proof.
  induction bins as [|y t IH]; intros i k x Hx Hm Hfirst; [destruct i; discriminate|].
  destruct i as [|i']; cbn [find_bin_from].
  - cbn in Hx. injection Hx as ->. unfold bin_has in Hm. rewrite Hm. f_equal. lia.
  - pose proof (Hfirst 0%nat y ltac:(lia) eq_refl) as H0. unfold bin_has in H0. rewrite H0.
    rewrite (IH i' (k + 1) x Hx Hm); [f_equal; lia|].
    intros j z Hj Hz. apply (Hfirst (S j) z); [lia|exact Hz].
Qed.

(** [bins_ok_b] read as a proposition: distinct names; every bin non-empty and of a known chromosome; the table listed
    by (chromosome, start) with the bins of one chromosome disjoint (true of every valid tiling) *)
Record BinsOK (bins : list bin) (names : list string) : Prop := {
  bo_names : NoDup names;
  bo_bin : forall x, In x bins -> 0 <= bchrom x < Z.of_nat (length names) /\ bstart x < bend x;
  bo_sorted : forall i j x y, (i < j)%nat -> nth_error bins i = Some x -> nth_error bins j = Some y -> binltb x y = true
}.

Lemma find_bin_own bins names i x :
  BinsOK bins names -> nth_error bins i = Some x -> find_bin bins (bchrom x) (bstart x) = Some (Z.of_nat i).
Proof.
  intros Hok Hx. apply (find_bin_from_first bins _ _ i 0 x Hx); unfold bin_has.
  - pose proof (bo_bin _ _ Hok x (nth_error_In _ _ Hx)). lia.
  - intros j y Hj Hy. pose proof (bo_sorted _ _ Hok j i y x Hj Hy Hx) as Hlt. unfold binltb in Hlt. lia.
Qed.

(** the triangle test on (chromosome, start) anchors agrees with the one on bin ids *)
Lemma bins_ordered bins names i j x y :
  BinsOK bins names -> (i <= j)%nat -> nth_error bins i = Some x -> nth_error bins j = Some y ->
  kltb (bchrom y, bstart y) (bchrom x, bstart x) = false.
Proof.
  intros Hok Hij Hx Hy. unfold kltb. cbn [fst snd]. destruct (Nat.eq_dec i j) as [->|Hne].
  - rewrite Hx in Hy. injection Hy as <-. lia.
  - pose proof (bo_sorted _ _ Hok i j x y ltac:(lia) Hx Hy) as Hlt. unfold binltb in Hlt.
    pose proof (bo_bin _ _ Hok x (nth_error_In _ _ Hx)). lia.
Qed.

Definition bg2_schema : schema :=
  {| s_in := ["chrom1"; "start1"; "end1"; "chrom2"; "start2"; "end2"; "count"]%string;
     s_num := [("chrom1", 0); ("start1", 1); ("end1", 2); ("chrom2", 3); ("start2", 4); ("end2", 5); ("count", 6)]%string;
     s_out := ["bin1_id"; "bin2_id"; "count"]%string |}.
Lemma load_schema_bg2_default : load_schema true [] = Some bg2_schema.
Proof. reflexivity. Qed.

Definition InRange (bins : list bin) (px : list pixel) : Prop :=
  forall p, In p px -> 0 <= row p < Z.of_nat (length bins) /\ 0 <= col p < Z.of_nat (length bins).

(** the anchor record `dump --join [--one-based-starts]` prints for pixel p *)
Definition anchor_of (bins : list bin) (ob : bool) (p : pixel) : anchor_rec :=
  let b1 := nth (Z.to_nat (row p)) bins (0, 0, 0) in
  let b2 := nth (Z.to_nat (col p)) bins (0, 0, 0) in
  let d := if ob then 1 else 0 in
  ((bchrom b1, bstart b1 + d), (bchrom b2, bstart b2 + d), val p).

Lemma bg2_record_printed names (c1 c2 : string) s1 e1 s2 e2 v i1 i2 :
  index_of c1 names 0 = Some i1 -> index_of c2 names 0 = Some i2 ->
  bg2_record names bg2_schema "count" [c1; print_Z s1; print_Z e1; c2; print_Z s2; print_Z e2; print_Z v]
  = Some ((i1, s1), (i2, s2), v).
Proof.
  intros H1 H2. unfold bg2_record.
  generalize (parse_print_Z s1), (parse_print_Z s2), (parse_print_Z v).
  generalize (print_Z s1), (print_Z e1), (print_Z s2), (print_Z e2), (print_Z v). intros x1 y1 x2 y2 z Hx1 Hx2 Hz.
  (* as in [coo_record_printed] *)
  let t := eval vm_compute in (read_fields (s_in bg2_schema) (s_num bg2_schema) [c1; x1; y1; c2; x2; y2; z]) in
  change (read_fields (s_in bg2_schema) (s_num bg2_schema) [c1; x1; y1; c2; x2; y2; z]) with t.
  cbn. now rewrite H1, H2, Hx1, Hx2, Hz.
Qed.

Lemma mapM_bg2_text bins names ob px :
  BinsOK bins names -> InRange bins px ->
  mapM (bg2_record names bg2_schema "count") (bg2_text bins names ob px) = Some (map (anchor_of bins ob) px).
Proof.
  intros Hok Hr. unfold bg2_text. rewrite mapM_map. apply mapM_map_total. intros p Hp. cbv zeta.
  assert (Hname : forall i, 0 <= i < Z.of_nat (length bins) ->
            let b := nth (Z.to_nat i) bins (0, 0, 0) in
            index_of (nth (Z.to_nat (bchrom b)) names EmptyString) names 0 = Some (bchrom b)).
  { intros i Hi b. pose proof (bo_bin _ _ Hok b ltac:(apply nth_In; lia)).
    rewrite (index_of_nth names EmptyString _ 0 (bo_names _ _ Hok)) by lia. f_equal. lia. }
  apply bg2_record_printed; apply Hname; now apply Hr.
Qed.

Lemma sanitize_anchor bins names ob t px p :
  BinsOK bins names -> InRange bins px -> tril_harmless t px -> In p px ->
  sanitize_record bins ob t (anchor_of bins ob p) = Some [p].
Proof.
  intros Hok Hr Ht Hp. destruct (Hr p Hp) as [Hrow Hcol].
  assert (Hu : t <> Keep -> row p <= col p) by (destruct Ht as [->|Hu]; [contradiction|intros _; now apply Hu]).
  clear Hr Ht Hp. destruct p as [[a b] v]. unfold sanitize_record, anchor_of, row, col, val in *. cbn [fst snd] in *.
  set (b1 := nth (Z.to_nat a) bins (0, 0, 0)). set (b2 := nth (Z.to_nat b) bins (0, 0, 0)).
  assert (E1 : nth_error bins (Z.to_nat a) = Some b1) by (apply nth_error_nth'; lia).
  assert (E2 : nth_error bins (Z.to_nat b) = Some b2) by (apply nth_error_nth'; lia).
  (* the one-based shift is undone: the anchors are the starts of the pixel's own bins *)
  replace (if ob then (bchrom b1, _) else _) with (bchrom b1, bstart b1) by (destruct ob; f_equal; lia).
  replace (if ob then (bchrom b2, _) else _) with (bchrom b2, bstart b2) by (destruct ob; f_equal; lia).
  assert (Hnt : t <> Keep -> kltb (bchrom b2, bstart b2) (bchrom b1, bstart b1) = false).
  { intro Hk. apply (bins_ordered bins names (Z.to_nat a) (Z.to_nat b) b1 b2 Hok); [specialize (Hu Hk); lia|assumption..]. }
  assert (F1 : find_bin bins (bchrom b1) (bstart b1) = Some a) by (rewrite (find_bin_own bins names _ b1 Hok E1); f_equal; lia).
  assert (F2 : find_bin bins (bchrom b2) (bstart b2) = Some b) by (rewrite (find_bin_own bins names _ b2 Hok E2); f_equal; lia).
  destruct t; rewrite ?Hnt by discriminate; cbn [negb fst snd]; now rewrite F1, F2.
Qed.

Theorem load_anchor_recs_roundtrip bins names ob t chunk px :
  BinsOK bins names -> InRange bins px -> SSorted px -> tril_harmless t px ->
  load_anchor_recs bins ob t chunk (map (anchor_of bins ob) px) = Some px.
Proof.
  intros Hok Hr Hs Ht. unfold load_anchor_recs. rewrite chunks_of_map, mapM_map.
  rewrite (mapM_map_total _ (fun ch => ch)), map_id.
  - rewrite (chunks_no_dup_key chunk px Hs), concat_chunks_of. f_equal. now apply aggregate_sorted_id.
  - intros ch Hch. rewrite mapM_map, (mapM_map_total _ (fun p => [p])).
    + cbn [option_map]. now rewrite (concat_map_singleton _ (fun p => p)), map_id.
    + intros p Hp. apply (sanitize_anchor bins names ob t px); try assumption. now apply (in_chunk_in chunk px ch).
Qed.

Lemma names_nodup_b_sound l : names_nodup_b l = true -> NoDup l.
Proof.
  induction l as [|x t IH]; intro H; [constructor|]. cbn in H. apply andb_prop in H as [Hx Ht].
  constructor; [|now apply IH]. intro Hin. apply negb_true_iff in Hx.
  assert (existsb (String.eqb x) t = true) by (apply existsb_exists; exists x; split; [assumption|apply String.eqb_refl]).
  congruence.
Qed.

Lemma bins_sorted_b_pairs l : bins_sorted_b l = true ->
  forall i j x y, (i < j)%nat -> nth_error l i = Some x -> nth_error l j = Some y -> binltb x y = true.
Proof.
  induction l as [|a t IH]; intros H i j x y Hij Hx Hy; [destruct i; discriminate|].
  cbn in H. apply andb_prop in H as [Ha Ht]. destruct j as [|j']; [inversion Hij|]. destruct i as [|i']; cbn in Hx, Hy.
  - injection Hx as <-. rewrite forallb_forall in Ha. apply Ha. now apply nth_error_In in Hy.
  - apply (IH Ht i' j' x y); [now apply Nat.succ_lt_mono|assumption|assumption].
Qed.

Theorem bins_ok_b_sound bins names : bins_ok_b bins names = true -> BinsOK bins names.
Proof.
  unfold bins_ok_b. intro H. apply andb_prop in H as [H Hs]. apply andb_prop in H as [Hn Hf]. rewrite forallb_forall in Hf.
  constructor; [now apply names_nodup_b_sound| |now apply bins_sorted_b_pairs]. intros x Hx. specialize (Hf x Hx). lia.
Qed.

(** C12 over exact rationals: masked bins, the divisive default, missing column = error, never raw, and the
    composition with the C03 dense query. *)
From Cooler Require Import Model.Query Model.Balanced Proofs.QueryProofs Proofs.QueryMain Proofs.BalancedFProofs.
From Coq Require Import ZifyBool.

(** the weight a bin contributes: the stored weight, or its reciprocal for divisive weights *)
Definition adj (divisive : bool) (x : weight) : weight := if divisive then winv x else x.
Definition wt (w : list weight) (divisive : bool) (k : Z) : weight := adj divisive (wnth w k).

(** On a box given as a tuple, the rational model of Model/Balanced.v computes to the generic one of Model/BalancedF.v at
    the scalar type [weight] with [winv], [wcell], [None] (Props/C12.v, C12_models_share_one_definition), and [wt] to
    [gwt winv None].  So a cell theorem of Proofs/BalancedFProofs.v at these three is, by conversion, the rational statement. *)
Definition wcell (x y : weight) (v : Z) : weight := wmul (wmul x y) (wofZ v).

Lemma wmul_none_l x y : wmul (wmul None x) y = None. Proof. reflexivity. Qed.
Lemma wmul_none_r x y : wmul (wmul x None) y = None. Proof. destruct x; reflexivity. Qed.
Lemma wt_masked w dv k : wnth w k = None -> wt w dv k = None.
Proof. unfold wt, adj. intros ->. destruct dv; reflexivity. Qed.

Theorem effective_divisive_spec balance dw :
  effective_divisive balance dw =
  match dw with
  | Some b => b
  | None => match balance with
            | Some (Some s) => (String.eqb s "KR" || String.eqb s "VC" || String.eqb s "VC_SQRT")%bool
            | _ => false
            end
  end.
Proof.
  unfold effective_divisive, divisive_names. destruct dw; [reflexivity|]. destruct balance as [[s|]|]; try reflexivity.
  cbn [existsb]. now rewrite orb_false_r, orb_assoc.
Qed.

Theorem missing_column_is_error epx off cs fill form cols balance dw bb name :
  weight_name balance = Some name -> lookup_weights cols name = None ->
  matrix_balanced epx off cs fill form cols balance dw bb = None.
Proof.
  intros Hn Hl. unfold matrix_balanced. destruct (matrix_records epx off cs fill form bb); [|reflexivity].
  now rewrite Hn, Hl.
Qed.
Theorem balanced_never_raw epx off cs fill form cols balance dw bb name out :
  weight_name balance = Some name -> matrix_balanced epx off cs fill form cols balance dw bb <> Some (BRaw out).
Proof.
  intros Hn. unfold matrix_balanced. destruct (matrix_records epx off cs fill form bb); [|discriminate].
  rewrite Hn. destruct (lookup_weights cols name); [|discriminate]. destruct form; discriminate.
Qed.

Theorem dense_balanced_full n epx off cs cols balance dw name w i0 i1 j0 j1 :
  ValidCSR n epx off -> Upper epx -> 1 <= cs ->
  0 <= i0 -> i0 <= i1 -> i1 <= n -> 0 <= j0 -> j0 <= j1 -> j1 <= n -> zlen w = n ->
  weight_name balance = Some name -> lookup_weights cols name = Some w ->
  exists D, matrix_balanced epx off cs true Dense cols balance dw (i0, i1, j0, j1) = Some (BDense D) /\
    forall a b, 0 <= a < i1 - i0 -> 0 <= b < j1 - j0 ->
      nth (Z.to_nat b) (nth (Z.to_nat a) D []) None =
      wmul (wmul (wt w (effective_divisive balance dw) (i0 + a)) (wt w (effective_divisive balance dw) (j0 + b)))
           (wofZ (symm (map snd epx) (i0 + a) (j0 + b))).
Proof.
  intros HV HU Hcs Hi0 Hi Hi1 Hj0 Hj Hj1 Hw Hname Hlook.
  destruct (gdense_balanced_full winv wcell None n epx off cs w (effective_divisive balance dw) i0 i1 j0 j1) as [out [Ho Hc]]; try assumption.
  unfold matrix_balanced, matrix_records. rewrite Ho, Hname, Hlook. eexists. split; [reflexivity|exact Hc].
Qed.

(** The sorted group-by of Model/Merge.v ([gins], [group], [groupby_agg], [vals]) for any value type and any
    aggregation function.  [group l] is the one grouped table that is strictly sorted on its keys, has the
    keys of [l] and holds under each key that key's values in order of appearance ([group_canon]); this
    gives the closed form [groupby_agg_eq] over the sorted distinct keys [skeys l], and the laws of the
    group-by are then facts about [map].
    Model/Coarsen.v repeats the four definitions word for word; Proofs/CoarsenGroupBy.v carries over what
    the coarsening proofs use. *)
From Cooler Require Import Model.Merge Proofs.PixelsProofs.
From Coq Require Import Sorted Permutation.

Section GroupBy.
Context {V : Type}.
Notation recd := (key * V)%type.
Notation grp := (key * list V)%type.

Lemma vals_nil k : @vals V [] k = []. Proof. reflexivity. Qed.
Lemma vals_cons (p : recd) l k : vals (p :: l) k = (if keqb (fst p) k then [snd p] else []) ++ vals l k.
Proof. unfold vals. cbn [filter]. destruct (keqb (fst p) k); reflexivity. Qed.
Lemma vals_app (l1 l2 : list recd) k : vals (l1 ++ l2) k = vals l1 k ++ vals l2 k.
Proof. unfold vals. now rewrite filter_app, map_app. Qed.
Lemma vals_concat (Gs : list (list recd)) k : vals (concat Gs) k = concat (map (fun G => vals G k) Gs).
Proof. induction Gs as [|G t IH]; [reflexivity|]. cbn [concat map]. now rewrite vals_app, IH. Qed.
Lemma vals_in (l : list recd) k : In k (map fst l) <-> vals l k <> [].
Proof.
  induction l as [|p l IH]; [cbn; tauto|]. rewrite vals_cons. cbn [map In].
  destruct (keqb (fst p) k) eqn:E.
  - apply keqb_eq in E. split; [discriminate|now left].
  - apply keqb_neq in E. cbn [app]. rewrite <- IH. tauto.
Qed.
Lemma vals_notin (l : list recd) k : ~ In k (map fst l) -> vals l k = [].
Proof. rewrite vals_in. destruct (vals l k); [reflexivity|intros []; discriminate]. Qed.
Lemma vals_perm (l l' : list recd) k : Permutation l l' -> Permutation (vals l k) (vals l' k).
Proof.
  induction 1 as [|p l l' _ IH|p q l|l l' l'' _ IH1 _ IH2].
  - reflexivity.
  - rewrite !vals_cons. now apply Permutation_app_head.
  - rewrite !vals_cons, !app_assoc. apply Permutation_app_tail. apply Permutation_app_comm.
  - eapply Permutation_trans; eauto.
Qed.
Lemma vals_filter (P : key -> bool) (l : list recd) k :
  vals (filter (fun p => P (fst p)) l) k = if P k then vals l k else [].
Proof.
  induction l as [|p l IH]; cbn [filter]; [now destruct (P k)|].
  rewrite vals_cons. destruct (keqb (fst p) k) eqn:E.
  - apply keqb_eq in E. subst k. destruct (P (fst p)); [now rewrite vals_cons, keqb_refl, IH|exact IH].
  - destruct (P (fst p)); [rewrite vals_cons, E|]; rewrite IH; now destruct (P k).
Qed.
Lemma keys_filter (P : key -> bool) (l : list recd) k :
  In k (map fst (filter (fun p => P (fst p)) l)) <-> In k (map fst l) /\ P k = true.
Proof.
  rewrite !in_map_iff. split.
  - intros (p & <- & Hp). apply filter_In in Hp. destruct Hp as (Hp & HP). split; [exists p; auto|exact HP].
  - intros ((p & <- & Hp) & HP). exists p. split; [reflexivity|]. apply filter_In. auto.
Qed.
Lemma vals_sorted_unique (out : list recd) k v : StronglySorted klt (map fst out) -> In (k, v) out -> vals out k = [v].
Proof.
  induction out as [|[k0 v0] t IH]; intros HS Hin; [contradiction|]. cbn [map fst] in HS. inversion HS as [|? ? HSt HF]; subst.
  rewrite vals_cons. cbn [fst snd]. rewrite Forall_forall in HF. destruct Hin as [E|Hin].
  - inversion E; subst. rewrite keqb_refl, vals_notin; [reflexivity|]. intro X. apply (klt_irrefl k). now apply HF.
  - assert (keqb k0 k = false) as ->; [|now apply IH].
    apply keqb_neq. intros ->. apply (klt_irrefl k), HF, in_map_iff. exists (k, v). auto.
Qed.

Definition gkeys (g : list grp) : list key := map fst g.
Definition GSorted (g : list grp) : Prop := StronglySorted klt (gkeys g).
(** all values stored under key k in a grouped table *)
Fixpoint glook (g : list grp) (k : key) : list V :=
  match g with
  | [] => []
  | (k', vs) :: t => (if keqb k' k then vs else []) ++ glook t k
  end.

Lemma glook_notin g k : ~ In k (gkeys g) -> glook g k = [].
Proof.
  induction g as [|[k' vs] t IH]; intros H; [reflexivity|]. cbn [glook gkeys map fst In] in *.
  destruct (keqb k' k) eqn:E. { apply keqb_eq in E. tauto. }
  apply IH. tauto.
Qed.
Lemma gsorted_head_notin k0 vs t : GSorted ((k0, vs) :: t) -> ~ In k0 (gkeys t).
Proof.
  intros H X. inversion H as [|? ? _ Hall]; subst. rewrite Forall_forall in Hall.
  apply (klt_irrefl k0). apply Hall. exact X.
Qed.
(** closed form of a sorted grouped table: its keys, each with what [glook] finds under it *)
Lemma gsorted_closed g : GSorted g -> g = map (fun k => (k, glook g k)) (gkeys g).
Proof.
  induction g as [|[k0 vs] t IH]; intro S; [reflexivity|]. pose proof (gsorted_head_notin _ _ _ S) as N.
  inversion S as [|? ? St _]; subst. cbn [gkeys map fst glook]. rewrite keqb_refl, (glook_notin t k0 N), app_nil_r.
  f_equal. etransitivity; [exact (IH St)|]. apply map_ext_in. intros k Hk.
  assert (keqb k0 k = false) as -> by (apply keqb_neq; intros ->; contradiction). reflexivity.
Qed.

Lemma gkeys_gins k v g x : In x (gkeys (gins k v g)) <-> x = k \/ In x (gkeys g).
Proof.
  induction g as [|[k0 vs] t IH]; cbn [gins gkeys map In fst]; [intuition|].
  destruct (kcmp k k0) eqn:E; cbn [gkeys map In fst].
  - apply kcmp_eq in E; subst. intuition.
  - intuition.
  - fold (gkeys (gins k v t)). rewrite IH. fold (gkeys t). intuition.
Qed.
Lemma gsorted_gins k v g : GSorted g -> GSorted (gins k v g).
Proof.
  unfold GSorted. induction g as [|[k0 vs] t IH]; cbn [gins gkeys map fst]; intro H.
  - constructor; constructor.
  - inversion H as [|? ? Ht Hall]; subst. destruct (kcmp k k0) eqn:E; cbn [gkeys map fst].
    + constructor; assumption.
    + apply kcmp_lt in E. constructor; [exact H|]. constructor; [exact E|].
      eapply Forall_impl; [|exact Hall]. intros a Ha. eapply klt_trans; eauto.
    + apply kcmp_gt in E. constructor; [apply IH; exact Ht|].
      apply Forall_forall. intros x Hx. apply (gkeys_gins k v t x) in Hx. destruct Hx as [->|Hx]; [exact E|].
      rewrite Forall_forall in Hall. apply Hall; exact Hx.
Qed.
Lemma glook_gins k v g q : GSorted g ->
  glook (gins k v g) q = glook g q ++ (if keqb k q then [v] else []).
Proof.
  induction g as [|[k0 vs] t IH]; intros HS; cbn [gins glook].
  - now rewrite app_nil_r.
  - pose proof (gsorted_head_notin _ _ _ HS) as Hn.
    inversion HS as [|? ? HSt Hall]; subst. fold (gkeys t) in *.
    destruct (kcmp k k0) eqn:E; cbn [glook].
    + apply kcmp_eq in E; subst k0. destruct (keqb k q) eqn:Eq.
      * apply keqb_eq in Eq; subst q. rewrite (glook_notin t k Hn). now rewrite !app_nil_r.
      * now rewrite !app_nil_r.
    + apply kcmp_lt in E. destruct (keqb k q) eqn:Eq; [|now rewrite app_nil_r].
      apply keqb_eq in Eq; subst q.
      assert (Hk0 : keqb k0 k = false) by (apply keqb_neq; intros ->; now apply (klt_irrefl k)).
      rewrite Hk0. cbn [app]. rewrite (glook_notin t k); [reflexivity|].
      intro X. rewrite Forall_forall in Hall. apply (klt_irrefl k). eapply klt_trans; [exact E|apply Hall; exact X].
    + rewrite (IH HSt). now rewrite app_assoc.
Qed.

(** g is the sorted grouping of src: strictly sorted keys, same key set, same values per key in order *)
Definition GCanon (src : list recd) (g : list grp) : Prop :=
  GSorted g /\ (forall k, In k (gkeys g) <-> In k (map fst src)) /\ (forall k, glook g k = vals src k).

Lemma gcanon_fold (l : list recd) : forall src g, GCanon src g ->
  GCanon (src ++ l) (fold_left (fun acc p => gins (fst p) (snd p) acc) l g).
Proof.
  induction l as [|[k0 v0] t IH]; intros src g (S & K & L); cbn [fold_left fst snd].
  - rewrite app_nil_r. now split.
  - replace (src ++ (k0, v0) :: t) with ((src ++ [(k0, v0)]) ++ t) by now rewrite <- app_assoc.
    apply IH. split; [now apply gsorted_gins|]. split; intro k.
    + rewrite gkeys_gins, map_app, in_app_iff, K. cbn. intuition.
    + rewrite (glook_gins _ _ _ _ S), vals_app, L, vals_cons, vals_nil, app_nil_r. reflexivity.
Qed.
Theorem group_canon (l : list recd) : GCanon l (group l).
Proof. apply (gcanon_fold l [] []). split; [constructor|]. now split. Qed.

(** the distinct keys of l in ascending order *)
Definition skeys (l : list recd) : list key := gkeys (group l).

Lemma skeys_sorted l : StronglySorted klt (skeys l).
Proof. apply (group_canon l). Qed.
Lemma skeys_in l k : In k (skeys l) <-> In k (map fst l).
Proof. apply (group_canon l). Qed.
Lemma skeys_ext l l' : (forall k, In k (map fst l) <-> In k (map fst l')) -> skeys l = skeys l'.
Proof. intro H. apply (ssorted_ext klt klt_irrefl klt_trans); try apply skeys_sorted. intro k. now rewrite !skeys_in. Qed.

Theorem groupby_agg_eq agg (l : list recd) : groupby_agg agg l = map (fun k => (k, agg (vals l k))) (skeys l).
Proof.
  destruct (group_canon l) as (S & _ & L). unfold groupby_agg. rewrite (gsorted_closed _ S), map_map.
  apply map_ext. intro k. cbn [fst snd]. now rewrite L.
Qed.

Lemma groupby_agg_skeys agg (l : list recd) : map fst (groupby_agg agg l) = skeys l.
Proof. unfold groupby_agg, skeys, gkeys. now rewrite map_map. Qed.
Lemma groupby_agg_keys agg (l : list recd) k : In k (map fst (groupby_agg agg l)) <-> In k (map fst l).
Proof. rewrite groupby_agg_skeys. apply skeys_in. Qed.
Lemma groupby_agg_sorted agg (l : list recd) : StronglySorted klt (map fst (groupby_agg agg l)).
Proof. rewrite groupby_agg_skeys. apply skeys_sorted. Qed.
Lemma groupby_agg_value agg (l : list recd) k v : In (k, v) (groupby_agg agg l) -> v = agg (vals l k).
Proof. rewrite groupby_agg_eq, in_map_iff. intros (k' & E & _). now inversion E. Qed.

Lemma vals_groupby agg (G : list recd) k :
  vals (groupby_agg agg G) k = match vals G k with [] => [] | _ => [agg (vals G k)] end.
Proof.
  destruct (vals G k) as [|v vs] eqn:E.
  - apply vals_notin. rewrite groupby_agg_keys, vals_in. congruence.
  - rewrite <- E. apply vals_sorted_unique; [apply groupby_agg_sorted|].
    rewrite groupby_agg_eq. apply (in_map (fun k => (k, agg (vals G k)))), skeys_in, vals_in. congruence.
Qed.

Lemma groupby_agg_forall (P : key -> Prop) agg (l : list recd) :
  Forall (fun p => P (fst p)) l -> Forall (fun p => P (fst p)) (groupby_agg agg l).
Proof.
  intros H. rewrite Forall_forall in *. intros [k v] Hin.
  assert (Hk : In k (map fst l)) by (apply (groupby_agg_keys agg l k), in_map_iff; exists (k, v); auto).
  apply in_map_iff in Hk. destruct Hk as (q & <- & Hq). exact (H q Hq).
Qed.

Lemma groupby_agg_rel agg agg' (l l' : list recd) :
  (forall k, In k (map fst l) <-> In k (map fst l')) ->
  (forall k, In k (map fst l) -> agg (vals l k) = agg' (vals l' k)) ->
  groupby_agg agg l = groupby_agg agg' l'.
Proof.
  intros HK HV. rewrite !groupby_agg_eq, <- (skeys_ext _ _ HK). apply map_ext_in. intros k Hk.
  f_equal. apply HV. now apply skeys_in.
Qed.

(** grouping is compositional over a split of the keys into a lower and an upper part *)
Lemma groupby_agg_app agg (l1 l2 : list recd) :
  (forall k1 k2, In k1 (map fst l1) -> In k2 (map fst l2) -> klt k1 k2) ->
  groupby_agg agg (l1 ++ l2) = groupby_agg agg l1 ++ groupby_agg agg l2.
Proof.
  intros Hlt. rewrite !groupby_agg_eq.
  assert (skeys (l1 ++ l2) = skeys l1 ++ skeys l2) as ->.
  { apply (ssorted_ext klt klt_irrefl klt_trans); [apply skeys_sorted| |].
    - apply ssorted_app; try apply skeys_sorted. intros x y. rewrite !skeys_in. apply Hlt.
    - intro k. now rewrite in_app_iff, !skeys_in, map_app, in_app_iff. }
  rewrite map_app. f_equal; apply map_ext_in; intros k Hk; apply skeys_in in Hk; rewrite vals_app.
  - rewrite (vals_notin l2), app_nil_r; [reflexivity|]. intro X. exact (klt_irrefl k (Hlt k k Hk X)).
  - rewrite (vals_notin l1); [reflexivity|]. intro X. exact (klt_irrefl k (Hlt k k X Hk)).
Qed.

End GroupBy.

Definition vmap {A B} (f : A -> B) (l : list (key * A)) : list (key * B) := map (fun p => (fst p, f (snd p))) l.

Lemma vals_vmap {A B} (f : A -> B) l k : vals (vmap f l) k = map f (vals l k).
Proof.
  induction l as [|p l IH]; [reflexivity|]. cbn [vmap map]. rewrite !vals_cons. cbn [fst snd]. fold (vmap f l).
  rewrite IH. now destruct (keqb (fst p) k).
Qed.
(** a value map that commutes with the aggregations commutes with the group-by *)
Lemma groupby_agg_map {A B} (f : A -> B) (agg : list A -> A) (agg' : list B -> B) l :
  (forall vs, agg' (map f vs) = f (agg vs)) -> groupby_agg agg' (vmap f l) = vmap f (groupby_agg agg l).
Proof.
  intro H. rewrite !groupby_agg_eq.
  assert (skeys (vmap f l) = skeys l) as ->.
  { apply (ssorted_ext klt klt_irrefl klt_trans); try apply skeys_sorted. intro k. rewrite !skeys_in. unfold vmap. now rewrite map_map. }
  etransitivity; [|symmetry; apply map_map]. apply map_ext. intro k. cbn [fst snd]. now rewrite vals_vmap, H.
Qed.

(** The laws an aggregation may satisfy.  [AggPerm]: the order of the values does not matter.  [AggComposes]: the
    aggregate of the aggregates of non-empty blocks is the aggregate of everything.  [AggDecomp]: the same with the
    empty blocks left in and skipped, which is the form the two-level group-by needs (a key may be absent from a part). *)
Definition AggPerm {V} (agg : list V -> V) : Prop := forall vs vs', Permutation vs vs' -> agg vs = agg vs'.
Definition AggDecomp {V} (agg : list V -> V) : Prop := forall xss : list (list V),
  agg (concat (map (fun xs => match xs with [] => [] | _ => [agg xs] end) xss)) = agg (concat xss).
Definition AggComposes {V} (agg : list V -> V) : Prop :=
  forall Gs : list (list V), Forall (fun G => G <> []) Gs -> agg (map agg Gs) = agg (concat Gs).

Section AggLaws.
Context {V : Type}.
Notation recd := (key * V)%type.
Variable agg : list V -> V.

Lemma groupby_agg_perm : AggPerm agg -> forall l l' : list recd, Permutation l l' -> groupby_agg agg l = groupby_agg agg l'.
Proof.
  intros Hagg l l' HP. apply groupby_agg_rel.
  - intro k. split; apply Permutation_in; [|symmetry]; now apply Permutation_map.
  - intros k _. apply Hagg. now apply vals_perm.
Qed.

(** compatibility with a two-level merge: the group-by of group-by results is the group-by of everything *)
Lemma groupby_agg_two_level : AggDecomp agg ->
  forall Gs : list (list recd), groupby_agg agg (concat (map (groupby_agg agg) Gs)) = groupby_agg agg (concat Gs).
Proof.
  intros Hagg Gs. apply groupby_agg_rel.
  - intro k. rewrite !concat_map, !in_concat. split.
    + intros (ks & H1 & H2). rewrite map_map in H1. apply in_map_iff in H1. destruct H1 as (G & <- & HG).
      apply groupby_agg_keys in H2. exists (map fst G). split; [now apply in_map|exact H2].
    + intros (ks & H1 & H2). apply in_map_iff in H1. destruct H1 as (G & <- & HG).
      exists (map fst (groupby_agg agg G)). split; [rewrite map_map; apply in_map_iff; exists G; auto|now apply groupby_agg_keys].
  - intros k _. rewrite !vals_concat, map_map.
    rewrite (map_ext _ (fun G => match vals G k with [] => [] | _ => [agg (vals G k)] end)) by (intro; apply vals_groupby).
    rewrite <- (map_map (fun G => vals G k) (fun xs => match xs with [] => [] | _ => [agg xs] end)). apply Hagg.
Qed.

Section Compose.
Hypothesis agg_compose : AggComposes agg.

(** drop the empty blocks: what is left are the non-empty ones, each replaced by its aggregate *)
Lemma compose_decomp : AggDecomp agg.
Proof.
  (* the non-empty groups of xss *)
  intros xss. assert (E : exists Gs, Forall (fun G => G <> []) Gs /\ concat xss = concat Gs /\
            concat (map (fun xs => match xs with [] => [] | _ => [agg xs] end) xss) = map agg Gs).
  { induction xss as [|[|x xs] t (Gs & N & E1 & E2)]; [now exists []|now exists Gs|]. exists ((x :: xs) :: Gs).
    cbn [map concat app]. rewrite E1, E2. repeat split. constructor; [discriminate|exact N]. }
  destruct E as (Gs & N & -> & ->). now apply agg_compose.
Qed.

Lemma compose_two_level (Gs : list (list recd)) :
  groupby_agg agg (concat (map (groupby_agg agg) Gs)) = groupby_agg agg (concat Gs).
Proof. exact (groupby_agg_two_level compose_decomp Gs). Qed.

Hypothesis agg_single : forall v, agg [v] = v.

Lemma groupby_single (p : recd) : groupby_agg agg [p] = [p].
Proof. destruct p as [k v]. unfold groupby_agg, group. cbn. now rewrite agg_single. Qed.

Lemma groupby_app_agg (X Y : list recd) : groupby_agg agg (groupby_agg agg X ++ Y) = groupby_agg agg (X ++ Y).
Proof.
  (* Y as a family of one-record tables, each its own group-by *)
  pose proof (compose_two_level (X :: map (fun p => [p]) Y)) as H. cbn [map concat] in H.
  now rewrite map_map, (map_ext _ _ groupby_single), (concat_map_singleton _ (fun p => p)), map_id in H by reflexivity.
Qed.
End Compose.
End AggLaws.

(** Max and min: [f] returns, of every non-empty list, a member that is greatest with respect to [le].  When [le] is
    antisymmetric there is one such member, so [f] does not see the order of the values, and the greatest of the
    greatest members of non-empty blocks is the greatest of all. *)
Definition IsExtremum {V} (le : V -> V -> Prop) (f : list V -> V) : Prop :=
  forall l, l <> [] -> In (f l) l /\ forall x, In x l -> le x (f l).

Section Extremum.
Context {V : Type} (le : V -> V -> Prop) (f : list V -> V).
Hypothesis le_antisym : forall a b, le a b -> le b a -> a = b.
Hypothesis f_ext : IsExtremum le f.

Lemma extremum_unique l m : In m l -> (forall x, In x l -> le x m) -> f l = m.
Proof.
  intros I U. destruct (f_ext l) as [I' U']; [now intros ->|]. apply le_antisym; [now apply U|now apply U'].
Qed.
Lemma extremum_perm : AggPerm f.
Proof.
  intros [|v t] vs' HP; [now apply Permutation_nil in HP as ->|]. destruct (f_ext (v :: t)) as [I U]; [discriminate|].
  symmetry. apply extremum_unique; [now apply (Permutation_in _ HP)|]. intros x Hx. apply U.
  now apply (Permutation_in _ (Permutation_sym HP)).
Qed.
Lemma extremum_composes : AggComposes f.
Proof.
  intros [|G0 t] N; [reflexivity|]. rewrite Forall_forall in N. set (Gs := G0 :: t) in *.
  destruct (f_ext (concat Gs)) as [I U].
  { intro E. apply app_eq_nil in E. apply (N G0); [now left|apply E]. }
  apply extremum_unique.
  - apply in_concat in I as (G & HG & I). apply in_map_iff. exists G. split; [|exact HG].
    apply extremum_unique; [exact I|]. intros y Hy. apply U, in_concat. eauto.
  - intros y Hy. apply in_map_iff in Hy as (G & <- & HG). apply U, in_concat. exists G. split; [exact HG|].
    now apply f_ext, N.
Qed.
End Extremum.

(** the exact integer sum composes, empty blocks or not *)
Lemma sumZ_blocks (Gs : list (list Z)) : sumZ (map sumZ Gs) = sumZ (concat Gs).
Proof. induction Gs as [|G t IH]; [reflexivity|]. cbn [map concat]. now rewrite sumZ_cons, sumZ_app, IH. Qed.
Lemma sumZ_composes : AggComposes sumZ.
Proof. intros Gs _. apply sumZ_blocks. Qed.

Lemma look_vals (l : list (key * Z)) k : look l k = sumZ (vals l k).
Proof.
  induction l as [|[k' v] t IH]; [reflexivity|]. rewrite vals_cons. cbn [look fst snd]. rewrite IH.
  destruct (keqb k' k) eqn:E.
  - apply keqb_eq in E. subst k'. rewrite kcmp_refl. cbn [app]. now rewrite sumZ_cons.
  - assert (kcmp k k' <> Eq) by (rewrite kcmp_eq; apply keqb_neq in E; congruence).
    destruct (kcmp k k'); [contradiction|reflexivity|reflexivity].
Qed.

(** the pandas group-by sum is the canonical aggregate of Model/Pixels.v *)
Theorem groupby_sum_aggregate (l : list pixel) : groupby_agg sumZ l = aggregate l.
Proof.
  apply (canon_unique l); [|apply aggregate_canon].
  split; [apply (groupby_agg_sorted sumZ l)|]. split; [intro k; apply groupby_agg_keys|].
  intro k. rewrite !look_vals, vals_groupby. destruct (vals l k); [reflexivity|]. rewrite sumZ_cons. change (sumZ []) with 0. lia.
Qed.

(** C07 composed with C03: what a user READS from a merged cooler.  For symmetric-upper inputs over one bin table, the
    dense range query on the collection created from the aggregate of the inputs' pixels (which is what the merge
    writes, whatever its buffer: HistoryProofs.merge_valid) is, for every window and read chunk size, the element-wise
    sum of the inputs' symmetric matrices.  The statement names that collection directly; [buf] occurs in no conclusion. *)
From Cooler Require Import Model.Query Model.Index Proofs.PixelsProofs Proofs.QueryMain
     Proofs.IndexProofs Proofs.HistoryProofs Proofs.EndToEnd.

Lemma symm_aggregate_concat (ls : list (list pixel)) i j :
  symm (aggregate (concat ls)) i j = sumZ (map (fun l => symm l i j) ls).
Proof.
  rewrite symm_aggregate. unfold symm. destruct (i <=? j); apply look_concat.
Qed.

Theorem merge_then_dense_query nc chroms (inputs : list Index.cooler) buf cs i0 i1 j0 j1 :
  inputs <> [] -> 1 <= zlen chroms -> 0 <= nc -> 0 <= buf -> 1 <= cs ->
  Forall IndexProofs.ValidCSR inputs -> Forall (SameAxes nc chroms true) inputs ->
  0 <= i0 -> i0 <= i1 -> i1 <= zlen chroms -> 0 <= j0 -> j0 <= j1 -> j1 <= zlen chroms ->
  exists c out,
    create_model nc chroms (aggregate (concat (map pixels_of inputs))) true = Some c /\
    fill_lower_query (epx_of (pixels_of c)) (bin1_offset c) (get_spans (bin1_offset c) cs) (i0, i1, j0, j1) = Some out /\
    dense_of out (i0, i1, j0, j1) =
    map (fun i => map (fun j => sumZ (map (fun ci => symm (pixels_of ci) i j) inputs)) (zrange j0 (Z.to_nat (j1 - j0))))
        (zrange i0 (Z.to_nat (i1 - i0))).
Proof.
  intros Hne Hn Hnc Hb Hcs HV HA Hi0 Hi Hi1 Hj0 Hj Hj1.
  destruct (merge_valid nc chroms true inputs buf Hne Hn Hnc Hb HV HA) as (_ & c & Hc & HVc & Hpx & HAc & _).
  assert (Hnb : nbins c = zlen chroms).
  { destruct HAc as (_ & Hch & _). now rewrite <- (IndexProofs.validcsr_nbins _ HVc), Hch. }
  assert (Hs : symmetric_upper c = true) by (destruct HAc as (_ & _ & Hs); exact Hs).
  destruct (stored_cooler_range_queries c cs i0 i1 j0 j1 HVc Hcs) as (_ & Hq); try lia.
  destruct (Hq Hs) as (out & Ho & _ & Hd).
  exists c, out. split; [exact Hc|]. split; [exact Ho|]. rewrite Hd, Hpx.
  apply map_ext. intro i. apply map_ext. intro j. rewrite symm_aggregate_concat, map_map. reflexivity.
Qed.

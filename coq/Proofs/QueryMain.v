(** C03 over [ValidCSR]: the fill-lower output is a permutation of the symmetric completion inside the window,
    its dense form is the sub-block of the symmetric matrix, neither depends on the chunk size; the executable
    validity check; the resolution of slice bounds and scalars. *)
From Cooler Require Import Model.Query Proofs.PixelsProofs Proofs.QueryProofs Proofs.SpansProofs.
From Coq Require Import Sorted Permutation ZifyBool.

(** [in_window] on a record that carries its table position *)
Definition winP (bb : bbox) (r : ipixel) : bool := in_window bb (snd r).
(** the table lies in the upper triangle *)
Definition Upper (epx : list ipixel) : Prop := forall r, In r epx -> row (snd r) <= col (snd r).
(** what is asked of a span function: SpansProofs.spans_with_admissible provides it for [spans_with] *)
Definition SpansOK (n : Z) (rows : list (list ipixel)) (spans : bbox -> list span) : Prop :=
  forall x0 x1 y0 y1, 0 <= x0 -> x0 <= x1 -> x1 <= n ->
    AdmissibleSpans rows x0 x1 (spans (x0, x1, y0, y1)) \/ (y1 <= y0 /\ spans (x0, x1, y0, y1) = []).

Definition offdiag (p : pixel) : bool := negb (row p =? col p).
(** the symmetric matrix as a pixel list: an upper-triangle table followed by the mirror images of its
    off-diagonal records.  This is what the fill-lower theorems compare the engine's output with. *)
Definition completion (P : list pixel) : list pixel := P ++ map flip (filter offdiag P).

Lemma flip_inj a b : flip a = flip b -> a = b.
Proof. intro H. rewrite <- (flip_flip a), <- (flip_flip b). now f_equal. Qed.
Lemma in_completion P x : In x (completion P) <-> In x P \/ (row x <> col x /\ In (flip x) P).
Proof.
  unfold completion. rewrite in_app_iff, in_map_iff. split; (intros [H|H]; [now left|right]).
  - destruct H as [y [<- Hy]]. apply filter_In in Hy. destruct Hy as [Hy Hod]. rewrite flip_flip. split; [|exact Hy].
    destruct y as [[a b] v]. unfold offdiag, flip, row, col in *; cbn [fst snd] in *. lia.
  - destruct H as [Hne Hx]. exists (flip x). rewrite flip_flip. split; [reflexivity|]. apply filter_In. split; [exact Hx|].
    destruct x as [[a b] v]. unfold offdiag, flip, row, col in *; cbn [fst snd] in *. lia.
Qed.

Lemma upper_pixels epx : Upper epx -> forall p, In p (map snd epx) -> row p <= col p.
Proof. intros HU p Hp. apply in_map_iff in Hp. destruct Hp as [r [<- Hr]]. now apply HU. Qed.

Section Fill.
Variables (n : Z) (rows : list (list ipixel)).
Hypothesis Hn : zlen rows = n.
Hypothesis Hlab : labelled_from 0 rows.
Let epx := concat rows.
Let off := psums 0 (map zlen rows).
Variable spans : bbox -> list span.
Hypothesis Hspans : SpansOK n rows spans.
Hypothesis Hupper : Upper epx.

Theorem fill_lower_perm i0 i1 j0 j1 : 0 <= i0 -> i0 <= i1 -> i1 <= n -> 0 <= j0 -> j0 <= j1 -> j1 <= n ->
  exists out, fill_lower_query epx off spans (i0, i1, j0, j1) = Some out /\
    Permutation (map snd out) (filter (in_window (i0, i1, j0, j1)) (completion (map snd epx))).
Proof.
  intros. destruct (fill_lower_cnt n rows Hn Hlab spans Hspans Hupper i0 i1 j0 j1) as [out [Ho Hc]]; try assumption.
  exists out. split; [exact Ho|]. apply (Permutation_count_occ pixel_eq_dec). intro x.
  specialize (Hc x). unfold cnt in Hc. fold epx in Hc. rewrite Hc. unfold completion.
  rewrite count_filter, count_occ_app, count_map_flip, count_filter. unfold offdiag.
  now rewrite (Z.eqb_sym (row x)).
Qed.
End Fill.

Lemma look_completion_window (P : list pixel) bb i j : (forall p, In p P -> row p <= col p) ->
  look (filter (in_window bb) (completion P)) (i, j) = if in_window bb ((i, j), 0) then symm P i j else 0.
Proof.
  intro HU. destruct bb as [[[i0 i1] j0] j1].
  rewrite (look_filter_key _ (fun k => in_window (i0, i1, j0, j1) (k, 0))) by (intros [[a b] v]; reflexivity).
  cbv beta. unfold pixel, key in *. destruct (in_window (i0, i1, j0, j1) (i, j, 0)); [|reflexivity].
  unfold completion. rewrite look_app, look_map_flip.
  rewrite (look_filter_key offdiag (fun k => negb (fst k =? snd k))) by (intros [[a b] v]; reflexivity). cbv beta. cbn [fst snd].
  unfold symm. destruct (i <=? j) eqn:E.
  - destruct (negb (j =? i)) eqn:E2; [|lia]. rewrite (look_lower_zero P j i HU) by lia. lia.
  - rewrite (look_lower_zero P i j HU) by lia. destruct (negb (j =? i)) eqn:E2; lia.
Qed.

Lemma in_window_inside i0 i1 j0 j1 i j v : i0 <= i < i1 -> j0 <= j < j1 -> in_window (i0, i1, j0, j1) ((i, j), v) = true.
Proof. intros. unfold in_window, row, col; cbn [fst snd]. lia. Qed.

Lemma dense_ext (out : list ipixel) i0 i1 j0 j1 (f : Z -> Z -> Z) :
  (forall i j, i0 <= i < i1 -> j0 <= j < j1 -> look (map snd out) (i, j) = f i j) ->
  dense_of out (i0, i1, j0, j1) = map (fun i => map (fun j => f i j) (zrange j0 (Z.to_nat (j1 - j0)))) (zrange i0 (Z.to_nat (i1 - i0))).
Proof.
  intro H. unfold dense_of. apply map_ext_in. intros i Hi. apply map_ext_in. intros j Hj. apply in_zrange in Hi, Hj. apply H; lia.
Qed.

Lemma list_eqb_eq {A} (eqb : A -> A -> bool) : (forall x y, eqb x y = true -> x = y) ->
  forall a b, list_eqb eqb a b = true -> a = b.
Proof.
  intro H. induction a as [|x a IH]; destruct b as [|y b]; cbn; intro E; try reflexivity; try discriminate.
  apply andb_prop in E. destruct E as [E1 E2]. f_equal; [now apply H|now apply IH].
Qed.
Lemma labelled_rows_of epx : forall m k, labelled_from k (map (fun i => filter (fun r => row (snd r) =? i) epx) (zrange k m)).
Proof.
  induction m as [|m IH]; intro k; [exact I|]. rewrite zrange_cons. cbn [map labelled_from]. split; [|apply IH].
  apply Forall_forall. intros r Hr. apply filter_In in Hr. lia.
Qed.
Theorem valid_csr_b_sound n epx off : valid_csr_b n epx off = true -> ValidCSR n epx off.
Proof.
  unfold valid_csr_b. intro H. apply andb_prop in H. destruct H as [H H3]. apply andb_prop in H. destruct H as [H1 H2].
  exists (rows_of n epx). repeat split.
  - unfold rows_of, zlen, zrange. rewrite !map_length, seq_length. lia.
  - apply (list_eqb_eq ipixel_eqb); [|exact H2]. intros [i [[a b] v]] [i' [[a' b'] v']]. unfold ipixel_eqb, row, col, val; cbn [fst snd].
    intro E. assert (i = i' /\ a = a' /\ b = b' /\ v = v') as (-> & -> & -> & ->) by lia. reflexivity.
  - apply (list_eqb_eq Z.eqb); [|exact H3]. intros x y E. lia.
  - apply labelled_rows_of.
Qed.

Definition kswap (k : key) : key := (snd k, fst k).
Lemma keys_map_flip l : keys (map flip l) = map kswap (keys l).
Proof. unfold keys. rewrite !map_map. apply map_ext. intros [[a b] v]. reflexivity. Qed.
Lemma nodup_keys_completion (P : list pixel) : (forall p, In p P -> row p <= col p) -> NoDup (keys P) -> NoDup (keys (completion P)).
Proof.
  intros HU HN. unfold completion, keys. rewrite map_app. fold (keys P). fold (keys (map flip (filter offdiag P))).
  rewrite keys_map_flip. apply NoDup_app_intro; [exact HN| |].
  - apply FinFun.Injective_map_NoDup; [intros [a b] [c d] [= -> ->]; reflexivity|]. unfold keys. now apply nodup_map_filter.
  - intros k Hk Hk2. apply in_map_iff in Hk. destruct Hk as [p [<- Hp]]. pose proof (HU p Hp) as Hle.
    apply in_map_iff in Hk2. destruct Hk2 as [k' [E Hk']]. apply in_map_iff in Hk'. destruct Hk' as [q [<- Hq]].
    apply filter_In in Hq. destruct Hq as [Hq Hod]. pose proof (HU q Hq) as Hle2.
    destruct p as [[a b] v], q as [[c d] w]. unfold kswap, offdiag, row, col in *; cbn [fst snd] in *. inversion E; subst. lia.
Qed.

Section Statements.
Variables (n : Z) (epx : list ipixel) (off : list Z).
Hypothesis HV : ValidCSR n epx off.
Variable cutsf : list Z -> list Z.
Hypothesis Hcuts : forall seq, StronglySorted Z.le seq -> seq <> [] -> AdmissibleCuts seq (cutsf seq).
Let P := map snd epx.

Theorem direct_query_spec i0 i1 j0 j1 : 0 <= i0 -> i0 <= i1 -> i1 <= n ->
  direct_query epx off (spans_with cutsf off) (i0, i1, j0, j1) = filter (winP (i0, i1, j0, j1)) epx.
Proof.
  destruct HV as [rows [Hn [-> [-> Hlab]]]]. intros. unfold winP.
  apply (direct_query_rows n rows Hn Hlab); try assumption. now apply (spans_with_admissible n rows cutsf Hn Hcuts).
Qed.

Theorem fill_lower_spec i0 i1 j0 j1 : Upper epx -> 0 <= i0 -> i0 <= i1 -> i1 <= n -> 0 <= j0 -> j0 <= j1 -> j1 <= n ->
  exists out, fill_lower_query epx off (spans_with cutsf off) (i0, i1, j0, j1) = Some out /\
    Permutation (map snd out) (filter (in_window (i0, i1, j0, j1)) (completion P)).
Proof.
  destruct HV as [rows [Hn [-> [-> Hlab]]]]. intros.
  apply (fill_lower_perm n rows Hn Hlab); try assumption.
  intros x0 x1 y0 y1 ? ? ?. now apply (spans_with_admissible n rows cutsf Hn Hcuts).
Qed.

Theorem fill_lower_in i0 i1 j0 j1 : Upper epx -> 0 <= i0 -> i0 <= i1 -> i1 <= n -> 0 <= j0 -> j0 <= j1 -> j1 <= n ->
  exists out, fill_lower_query epx off (spans_with cutsf off) (i0, i1, j0, j1) = Some out /\
    forall x, In x (map snd out) <->
      (In x P \/ (row x <> col x /\ In (flip x) P)) /\ in_window (i0, i1, j0, j1) x = true.
Proof.
  intros HU ? ? ? ? ? ?. destruct (fill_lower_spec i0 i1 j0 j1) as [out [Ho Hp]]; try assumption.
  exists out. split; [exact Ho|]. intro x. rewrite <- in_completion, <- filter_In.
  split; apply Permutation_in; [|apply Permutation_sym]; exact Hp.
Qed.

Theorem fill_lower_nodup i0 i1 j0 j1 : Upper epx -> NoDup (keys P) -> 0 <= i0 -> i0 <= i1 -> i1 <= n -> 0 <= j0 -> j0 <= j1 -> j1 <= n ->
  exists out, fill_lower_query epx off (spans_with cutsf off) (i0, i1, j0, j1) = Some out /\ NoDup (keys (map snd out)).
Proof.
  intros HU HN ? ? ? ? ? ?. destruct (fill_lower_spec i0 i1 j0 j1) as [out [Ho Hp]]; try assumption.
  exists out. split; [exact Ho|]. eapply Permutation_NoDup; [apply Permutation_sym, Permutation_map, Hp|].
  apply nodup_map_filter. apply nodup_keys_completion; [now apply upper_pixels|exact HN].
Qed.

Theorem dense_eq_slice i0 i1 j0 j1 : Upper epx -> 0 <= i0 -> i0 <= i1 -> i1 <= n -> 0 <= j0 -> j0 <= j1 -> j1 <= n ->
  exists out, fill_lower_query epx off (spans_with cutsf off) (i0, i1, j0, j1) = Some out /\
    dense_of out (i0, i1, j0, j1) =
    map (fun i => map (fun j => symm P i j) (zrange j0 (Z.to_nat (j1 - j0)))) (zrange i0 (Z.to_nat (i1 - i0))).
Proof.
  intros HU ? ? ? ? ? ?. destruct (fill_lower_spec i0 i1 j0 j1) as [out [Ho Hp]]; try assumption.
  exists out. split; [exact Ho|]. apply dense_ext. intros i j Hi Hj.
  rewrite (look_perm _ _ (i, j) Hp), look_completion_window by now apply upper_pixels. now rewrite in_window_inside.
Qed.

Theorem dense_direct i0 i1 j0 j1 : 0 <= i0 -> i0 <= i1 -> i1 <= n ->
  dense_of (direct_query epx off (spans_with cutsf off) (i0, i1, j0, j1)) (i0, i1, j0, j1) =
  map (fun i => map (fun j => look P (i, j)) (zrange j0 (Z.to_nat (j1 - j0)))) (zrange i0 (Z.to_nat (i1 - i0))).
Proof.
  intros. rewrite direct_query_spec by assumption. apply dense_ext. intros i j Hi Hj.
  unfold winP. rewrite <- (filter_map_swap (@snd Z pixel) (in_window (i0, i1, j0, j1))). fold P. rewrite (look_filter_key _ (fun k => in_window (i0, i1, j0, j1) (k, 0))) by (intros [[a b] v]; reflexivity).
  cbv beta. now rewrite in_window_inside.
Qed.
End Statements.

Theorem direct_query_get_spans n epx off cs i0 i1 j0 j1 : ValidCSR n epx off -> 1 <= cs -> 0 <= i0 -> i0 <= i1 -> i1 <= n ->
  direct_query epx off (get_spans off cs) (i0, i1, j0, j1) = filter (winP (i0, i1, j0, j1)) epx.
Proof.
  intros HV Hcs. rewrite get_spans_eq. exact (direct_query_spec n epx off HV _ (linspace_admissible cs Hcs) i0 i1 j0 j1).
Qed.
Theorem fill_lower_get_spans n epx off cs i0 i1 j0 j1 : ValidCSR n epx off -> Upper epx -> 1 <= cs ->
  0 <= i0 -> i0 <= i1 -> i1 <= n -> 0 <= j0 -> j0 <= j1 -> j1 <= n ->
  exists out, fill_lower_query epx off (get_spans off cs) (i0, i1, j0, j1) = Some out /\
    Permutation (map snd out) (filter (in_window (i0, i1, j0, j1)) (completion (map snd epx))).
Proof.
  intros HV HU Hcs. rewrite get_spans_eq. exact (fill_lower_spec n epx off HV _ (linspace_admissible cs Hcs) i0 i1 j0 j1 HU).
Qed.

Theorem fill_lower_chunksize_independent n epx off c1 c2 i0 i1 j0 j1 : ValidCSR n epx off -> Upper epx -> 1 <= c1 -> 1 <= c2 ->
  0 <= i0 -> i0 <= i1 -> i1 <= n -> 0 <= j0 -> j0 <= j1 -> j1 <= n ->
  exists o1 o2, fill_lower_query epx off (get_spans off c1) (i0, i1, j0, j1) = Some o1 /\
                fill_lower_query epx off (get_spans off c2) (i0, i1, j0, j1) = Some o2 /\
                Permutation (map snd o1) (map snd o2) /\
                dense_of o1 (i0, i1, j0, j1) = dense_of o2 (i0, i1, j0, j1).
Proof.
  intros HV HU H1 H2 ? ? ? ? ? ?.
  destruct (fill_lower_get_spans n epx off c1 i0 i1 j0 j1) as [o1 [E1 P1]]; try assumption.
  destruct (fill_lower_get_spans n epx off c2 i0 i1 j0 j1) as [o2 [E2 P2]]; try assumption.
  exists o1, o2. repeat split; try assumption.
  - eapply Permutation_trans; [exact P1|]. apply Permutation_sym. exact P2.
  - unfold dense_of. apply map_ext. intro i. apply map_ext. intro j.
    rewrite (look_perm _ _ (i, j) P1), (look_perm _ _ (i, j) P2). reflexivity.
Qed.

(** one bound of a slice, within [-nmax, nmax], is resolved modulo the length, nmax itself staying nmax;
    an absent bound takes the default [d] *)
Lemma resolve_bound (o : option Z) d nmax : 0 <= d <= nmax -> (forall a, o = Some a -> - nmax <= a <= nmax) ->
  let r := match o with None => d | Some a => if a <? 0 then Z.max (nmax + a) 0 else a end in
  0 <= r <= nmax /\ r = match o with None => d | Some a => a mod nmax + (if a =? nmax then nmax else 0) end.
Proof.
  intros Hd Ha. destruct o as [a|]; [specialize (Ha a eq_refl)|now split]. cbv zeta.
  destruct (Z.ltb_spec a 0), (Z.eqb_spec a nmax); (split; [lia|]).
  - lia.
  - rewrite <- (Z.mod_add a 1 nmax), Z.mod_small by lia. lia.
  - subst a. rewrite Z_mod_same_full. lia.
  - rewrite Z.mod_small by lia. lia.
Qed.
Theorem process_slice_spec start stop nmax : 0 <= nmax ->
  (forall a, start = Some a -> - nmax <= a <= nmax) -> (forall b, stop = Some b -> - nmax <= b <= nmax) ->
  let '(i0, i1) := process_slice start stop nmax in
  0 <= i0 <= nmax /\ 0 <= i1 <= nmax /\
  i0 = match start with None => 0 | Some a => a mod nmax + (if a =? nmax then nmax else 0) end /\
  i1 = match stop with None => nmax | Some b => b mod nmax + (if b =? nmax then nmax else 0) end.
Proof.
  intros Hn Ha Hb. unfold process_slice.
  destruct (resolve_bound start 0 nmax ltac:(lia) Ha) as [Ha1 Ha2], (resolve_bound stop nmax nmax ltac:(lia) Hb) as [Hb1 Hb2].
  exact (conj Ha1 (conj Hb1 (conj Ha2 Hb2))).
Qed.
Theorem process_scalar_spec s nmax : 0 < nmax ->
  (- nmax <= s < nmax -> process_scalar s nmax = Some (s mod nmax, s mod nmax + 1)) /\
  (nmax <= s -> process_scalar s nmax = None).
Proof.
  intro Hn. unfold process_scalar. split; intro H.
  - destruct (s <? 0) eqn:E.
    + replace (s + nmax <? 0) with false by lia. replace (s + nmax >=? nmax) with false by lia. cbn [orb].
      rewrite <- (Z.mod_add s 1 nmax) by lia. rewrite Z.mod_small by lia. do 2 f_equal; lia.
    + rewrite E. replace (s >=? nmax) with false by lia. cbn [orb]. rewrite Z.mod_small by lia. reflexivity.
  - assert (E : (s <? 0) = false) by lia. rewrite !E. replace (s >=? nmax) with true by lia. reflexivity.
Qed.
(** a scalar outside [-n, n) on either side is refused (the lower side: repaired defect D33) *)
Theorem process_scalar_refuses s nmax : 0 <= nmax -> (s < - nmax \/ nmax <= s) -> process_scalar s nmax = None.
Proof.
  intros Hn H. unfold process_scalar. destruct (s <? 0) eqn:E.
  - destruct H as [H|H]; [|lia]. replace (s + nmax <? 0) with true by lia. reflexivity.
  - rewrite E. replace (s >=? nmax) with true by lia. reflexivity.
Qed.
(** every bound up to the length, however negative, is resolved as an array resolves it *)
Theorem process_slice_array_semantics start stop nmax : 0 <= nmax ->
  (forall a, start = Some a -> a <= nmax) -> (forall b, stop = Some b -> b <= nmax) ->
  process_slice start stop nmax =
  (match start with None => 0 | Some a => array_bound a nmax end, match stop with None => nmax | Some b => array_bound b nmax end).
Proof.
  intros Hn Ha Hb. unfold process_slice, array_bound.
  f_equal; [destruct start as [a|]; [specialize (Ha a eq_refl)|]|destruct stop as [b|]; [specialize (Hb b eq_refl)|]];
    try reflexivity; [destruct (a <? 0) eqn:E|destruct (b <? 0) eqn:E]; lia.
Qed.

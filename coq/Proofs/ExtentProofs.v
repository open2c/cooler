(** Proofs for C04: a genomic range maps to exactly the bins that overlap it. *)
From Cooler Require Import Model.Extent Proofs.BinsProofs.
From Coq Require Import ZifyBool Sorted.

Lemma ss_left_nth l x : StronglySorted Z.le l ->
  forall k y, nth_error l k = Some y -> (Z.of_nat k < searchsorted_left l x <-> y < x).
Proof.
  induction 1 as [|y0 l HS IH Hall]; intros k y Hk; [destruct k; discriminate|].
  cbn [searchsorted_left]. pose proof (ss_left_bounds l x) as Hb.
  destruct k as [|k]; cbn in Hk.
  - injection Hk as ->. destruct (y <? x) eqn:E; lia.
  - destruct (y0 <? x) eqn:E.
    + specialize (IH k y Hk). lia.
    + apply nth_error_In in Hk. rewrite Forall_forall in Hall. specialize (Hall y Hk). lia.
Qed.

(** on integers y <= x says y < x + 1, so a right insertion point is a left one and inherits
    what is known of those *)
Lemma ss_right_left l x : searchsorted_right l x = searchsorted_left l (x + 1).
Proof.
  induction l as [|y l IH]; cbn [searchsorted_left searchsorted_right]; [reflexivity|].
  rewrite IH. destruct (y <=? x) eqn:E1, (y <? x + 1) eqn:E2; lia.
Qed.

Lemma ss_right_bounds l x : 0 <= searchsorted_right l x <= zlen l.
Proof. rewrite ss_right_left. apply ss_left_bounds. Qed.

Lemma ss_right_mono l x x' : x <= x' -> searchsorted_right l x <= searchsorted_right l x'.
Proof. intros Hx. rewrite !ss_right_left. apply ss_left_mono. lia. Qed.

Lemma ss_right_nth l x : StronglySorted Z.le l ->
  forall k y, nth_error l k = Some y -> (Z.of_nat k < searchsorted_right l x <-> y <= x).
Proof. intros HS k y Hk. rewrite ss_right_left, (ss_left_nth l (x + 1) HS k y Hk). lia. Qed.

(** on a strictly increasing list at most one element equals s *)
Lemma ss_right_le_left_succ l s : StronglySorted Z.lt l ->
  searchsorted_right l s <= searchsorted_left l s + 1.
Proof.
  induction 1 as [|y l HS IH Hall]; cbn [searchsorted_left searchsorted_right]; [lia|].
  destruct (y <=? s) eqn:E1, (y <? s) eqn:E2; try lia.
  (* y = s : every later element is > s *)
  assert (y = s) by lia. subst y.
  destruct l as [|z l]; cbn [searchsorted_left searchsorted_right]; [lia|].
  inversion Hall as [|? ? Hz _]; subst. destruct (z <=? s) eqn:E3; lia.
Qed.

Lemma tiled_starts_ssorted c s0 blk : Tiled c s0 blk -> StronglySorted Z.lt (map bstart blk).
Proof.
  induction 1 as [|s e l Hse HT IH]; cbn; constructor; auto.
  apply Forall_forall. intros y Hy. apply in_map_iff in Hy as [x [<- Hx]].
  pose proof (tiled_start_ge _ _ _ HT x Hx). lia.
Qed.

Lemma tiled_starts_sorted c s0 blk : Tiled c s0 blk -> StronglySorted Z.le (map bstart blk).
Proof. intros HT. eapply (sorted_weaken Z.lt), tiled_starts_ssorted; eauto using Z.lt_le_incl. Qed.

Lemma tiled_adjacent c s0 blk : Tiled c s0 blk ->
  forall k x x', nth_error blk k = Some x -> nth_error blk (S k) = Some x' -> bstart x' = bend x.
Proof.
  induction 1 as [|s e l Hse HT IH]; intros k x x' Hk Hk'; [destruct k; discriminate|].
  destruct k as [|k]; cbn in Hk, Hk'.
  - injection Hk as <-. inversion HT as [|s1 e1 l1 Hse1 HT1]; subst; cbn in Hk'; [discriminate|].
    injection Hk' as <-. reflexivity.
  - eapply IH; eauto.
Qed.

Lemma tiled_first c s0 blk x : Tiled c s0 blk -> nth_error blk 0 = Some x -> bstart x = s0.
Proof. intros HT Hx. inversion HT; subst; cbn in Hx; [discriminate|]. injection Hx as <-. reflexivity. Qed.

Lemma tiled_nonempty_width c s0 blk x : Tiled c s0 blk -> In x blk -> bstart x < bend x.
Proof. intros HT Hin. pose proof (tiled_width_pos _ _ _ _ HT Hin). unfold bwidth in *. lia. Qed.

Lemma chrom_len_end blk : chrom_len blk = chrom_end blk.
Proof. reflexivity. Qed.

Lemma last_bin_end blk k x : nth_error blk k = Some x -> S k = length blk -> bend x = chrom_len blk.
Proof.
  intros Hk Hl. unfold chrom_len. rewrite last_nth, <- Hl, Nat.sub_1_r. cbn [Nat.pred].
  now rewrite (nth_error_nth _ _ _ Hk).
Qed.

Lemma tiled_end_le_len c s0 blk : Tiled c s0 blk -> forall x, In x blk -> bend x <= chrom_len blk.
Proof.
  induction 1 as [|s e l Hse HT IH]; intros x Hin; [easy|].
  destruct l as [|y l].
  - destruct Hin as [<-|[]]. unfold chrom_len; cbn. lia.
  - change (chrom_len ((c, s, e) :: y :: l)) with (chrom_len (y :: l)).
    destruct Hin as [<-|Hin]; [|now apply IH].
    assert (Hy : bend y <= chrom_len (y :: l)) by (apply IH; now left).
    inversion HT; subst. unfold bend in *; cbn [snd fst] in *. lia.
Qed.

(** the two insertion points of the variable-width path, read on the bins of the block: a bin lies at
    or after the lower one iff it ends after s, except that the last bin always does *)
Lemma tiled_select c s0 blk : Tiled c s0 blk ->
  forall s e k x, nth_error blk k = Some x ->
  (Z.of_nat k < searchsorted_left (map bstart blk) e <-> bstart x < e) /\
  (s < bend x -> searchsorted_right (map bstart blk) s - 1 <= Z.of_nat k) /\
  (searchsorted_right (map bstart blk) s - 1 <= Z.of_nat k -> s < bend x \/ bend x = chrom_len blk).
Proof.
  intros HT s e k x Hk. pose proof (tiled_starts_sorted _ _ _ HT) as HS. split.
  - apply (ss_left_nth _ e HS k). now rewrite nth_error_map, Hk.
  - destruct (nth_error blk (S k)) as [x'|] eqn:Hk'.
    + pose proof (ss_right_nth _ s HS (S k) (bstart x') ltac:(now rewrite nth_error_map, Hk')) as Hr.
      rewrite (tiled_adjacent _ _ _ HT _ _ _ Hk Hk') in Hr. lia.
    + apply nth_error_None in Hk'. assert (k < length blk)%nat by (apply nth_error_Some; congruence).
      pose proof (ss_right_bounds (map bstart blk) s) as Hb. unfold zlen in Hb. rewrite map_length in Hb.
      pose proof (last_bin_end blk k x Hk ltac:(lia)). lia.
Qed.

Lemma chrom_offset_S blocks i blk : nth_error blocks i = Some blk ->
  chrom_offset blocks (S i) = chrom_offset blocks i + zlen blk.
Proof.
  intros Hi. unfold chrom_offset. rewrite (firstn_S_nth_error _ _ _ Hi), concat_app, zlen_app. cbn [concat]. now rewrite app_nil_r.
Qed.

Lemma chrom_offset_0 blocks : chrom_offset blocks 0 = 0.
Proof. reflexivity. Qed.

Lemma chrom_offset_nonneg blocks i : 0 <= chrom_offset blocks i.
Proof. apply zlen_nonneg. Qed.

Lemma chrom_offset_le blocks i j : (i <= j)%nat -> chrom_offset blocks i <= chrom_offset blocks j.
Proof.
  intros Hij. unfold chrom_offset.
  rewrite <- (firstn_skipn i (firstn j blocks)), firstn_firstn, Nat.min_l, concat_app, zlen_app by lia.
  pose proof (zlen_nonneg (concat (skipn i (firstn j blocks)))). lia.
Qed.

Lemma nth_error_table blocks i blk j : nth_error blocks i = Some blk -> (j < length blk)%nat ->
  nth_error (table blocks) (Z.to_nat (chrom_offset blocks i) + j) = nth_error blk j.
Proof.
  intros Hi Hj. unfold table. rewrite (concat_split _ _ _ Hi). unfold chrom_offset, zlen.
  rewrite Nat2Z.id. rewrite nth_error_app2 by lia.
  replace (length (concat (firstn i blocks)) + j - length (concat (firstn i blocks)))%nat with j by lia.
  now rewrite nth_error_app1.
Qed.

Lemma slice_chrom blocks i blk : nth_error blocks i = Some blk ->
  slice (table blocks) (chrom_offset blocks i) (chrom_offset blocks (S i)) = blk.
Proof.
  intros Hi. rewrite (chrom_offset_S _ _ _ Hi). unfold slice, table.
  rewrite (concat_split _ _ _ Hi). unfold chrom_offset, zlen. rewrite Z.add_simpl_l, !Nat2Z.id.
  rewrite skipn_app, skipn_all, Nat.sub_diag. cbn [app skipn].
  rewrite firstn_app, firstn_all, Nat.sub_diag. cbn. now rewrite app_nil_r.
Qed.

Section VarPath.
  Variable blocks : list (list bin).
  Variable i : nat.
  Variable blk : list bin.
  Hypothesis HV : ValidBlocks blocks.
  Hypothesis Hi : nth_error blocks i = Some blk.

  Let off := chrom_offset blocks i.

  Lemma var_unfold s e :
    region_to_extent_var blocks i s e =
    (off + (searchsorted_right (map bstart blk) s - 1), off + searchsorted_left (map bstart blk) e).
  Proof. unfold region_to_extent_var. now rewrite (slice_chrom _ _ _ Hi). Qed.

  Lemma ss_right_pos s : 0 <= s -> 1 <= searchsorted_right (map bstart blk) s.
  Proof.
    intros Hs. destruct (HV i blk Hi) as [Hne HT].
    inversion HT as [|s1 e1 l1 Hse1 HT1]; subst; [congruence|].
    cbn [map searchsorted_right]. unfold bstart at 1. cbn [fst snd].
    pose proof (ss_right_bounds (map bstart l1) s). destruct (0 <=? s) eqn:E; lia.
  Qed.

  (** the rows before the block carry smaller chromosome ids, those after it larger ones *)
  Lemma chrom_rows k x : nth_error (table blocks) k = Some x ->
    (bchrom x = Z.of_nat i <-> off <= Z.of_nat k < off + zlen blk).
  Proof.
    unfold table, off, chrom_offset, zlen. rewrite (concat_split _ _ _ Hi). intros Hk.
    destruct (Nat.ltb_spec k (length (concat (firstn i blocks)))) as [H1|H1].
    - rewrite nth_error_app1 in Hk by exact H1. pose proof (firstn_chrom _ _ _ HV (nth_error_In _ _ Hk)). lia.
    - rewrite nth_error_app2 in Hk by exact H1.
      destruct (Nat.ltb_spec (k - length (concat (firstn i blocks))) (length blk)) as [H2|H2].
      + rewrite nth_error_app1 in Hk by exact H2. destruct (HV i blk Hi) as [_ HT].
        rewrite (tiled_chrom _ _ _ _ HT (nth_error_In _ _ Hk)). lia.
      + rewrite nth_error_app2 in Hk by exact H2. pose proof (skipn_chrom _ _ _ HV (nth_error_In _ _ Hk)). lia.
  Qed.

  Lemma block_row k : off <= Z.of_nat k < off + zlen blk ->
    nth_error (table blocks) k = nth_error blk (Z.to_nat (Z.of_nat k - off)).
  Proof.
    intros Hk. unfold zlen in Hk. pose proof (chrom_offset_nonneg blocks i) as Hoff. fold off in Hoff.
    rewrite <- (nth_error_table blocks i blk _ Hi) by lia. fold off. f_equal. lia.
  Qed.

  Lemma var_sound s e (k : nat) : 0 <= s ->
    off + (searchsorted_right (map bstart blk) s - 1) <= Z.of_nat k < off + searchsorted_left (map bstart blk) e ->
    exists x, nth_error (table blocks) k = Some x /\ bchrom x = Z.of_nat i /\ bstart x < e /\
              (s < bend x \/ bend x = chrom_len blk).
  Proof.
    intros Hs Hk. destruct (HV i blk Hi) as [_ HT]. pose proof (ss_right_pos s Hs).
    pose proof (ss_left_bounds (map bstart blk) e) as Hb. unfold zlen in Hb. rewrite map_length in Hb.
    rewrite block_row by (unfold zlen; lia).
    destruct (nth_error blk (Z.to_nat (Z.of_nat k - off))) as [x|] eqn:Hx; [|apply nth_error_None in Hx; lia].
    destruct (tiled_select _ _ _ HT s e _ x Hx) as (Ha & _ & Hl).
    exists x. split; [reflexivity|]. split; [exact (tiled_chrom _ _ _ _ HT (nth_error_In _ _ Hx))|].
    split; [apply Ha|apply Hl]; lia.
  Qed.

  Lemma var_complete s e (k : nat) x :
    nth_error (table blocks) k = Some x -> bchrom x = Z.of_nat i -> bstart x < e -> s < bend x ->
    off + (searchsorted_right (map bstart blk) s - 1) <= Z.of_nat k < off + searchsorted_left (map bstart blk) e.
  Proof.
    intros Hk Hc He Hs. destruct (HV i blk Hi) as [_ HT].
    pose proof (proj1 (chrom_rows _ _ Hk) Hc) as Hr. rewrite (block_row _ Hr) in Hk.
    destruct (tiled_select _ _ _ HT s e _ x Hk) as (Ha & Hl & _). apply Ha in He. apply Hl in Hs. lia.
  Qed.

  Theorem extent_var_overlap s e : 0 <= s < e -> e <= chrom_len blk ->
    let '(lo, hi) := region_to_extent_var blocks i s e in
    (forall k : nat, lo <= Z.of_nat k < hi <->
       exists x, nth_error (table blocks) k = Some x /\ bchrom x = Z.of_nat i /\ bstart x < e /\ s < bend x)
    /\ off <= lo < hi /\ hi <= chrom_offset blocks (S i).
  Proof.
    intros Hse HeL. rewrite var_unfold. split.
    - intros k. split.
      + intros Hk. destruct (var_sound s e k ltac:(lia) Hk) as (x & Hx & Hc & He & Hs).
        exists x. repeat split; auto. lia.
      + intros (x & Hk & Hc & Hxe & Hsx). now apply (var_complete s e k x).
    - pose proof (ss_right_pos s ltac:(lia)). pose proof (ss_left_mono (map bstart blk) (s + 1) e ltac:(lia)) as Hrl.
      rewrite <- ss_right_left in Hrl.
      pose proof (ss_left_bounds (map bstart blk) e) as Hlb. unfold zlen in Hlb. rewrite map_length in Hlb.
      rewrite (chrom_offset_S _ _ _ Hi). fold off. unfold zlen. lia.
  Qed.

  (** empty range: at most one bin, and it contains the position (closed at its end) *)
  Theorem extent_var_empty s : 0 <= s <= chrom_len blk ->
    let '(lo, hi) := region_to_extent_var blocks i s s in
    lo <= hi <= lo + 1 /\ off <= lo /\ hi <= chrom_offset blocks (S i) /\
    (forall k : nat, lo <= Z.of_nat k < hi ->
       exists x, nth_error (table blocks) k = Some x /\ bchrom x = Z.of_nat i /\ bstart x < s <= bend x).
  Proof.
    intros Hs. rewrite var_unfold. destruct (HV i blk Hi) as [_ HT].
    pose proof (ss_right_pos s ltac:(lia)).
    pose proof (ss_left_mono (map bstart blk) s (s + 1) ltac:(lia)) as Hlr. rewrite <- ss_right_left in Hlr.
    pose proof (ss_right_le_left_succ _ s (tiled_starts_ssorted _ _ _ HT)).
    pose proof (ss_left_bounds (map bstart blk) s) as Hlb. unfold zlen in Hlb. rewrite map_length in Hlb.
    rewrite (chrom_offset_S _ _ _ Hi). fold off. unfold zlen.
    repeat split; try lia.
    intros k Hk. destruct (var_sound s s k ltac:(lia) Hk) as (x & Hx & Hc & He & Hsx).
    exists x. repeat split; auto. lia.
  Qed.
End VarPath.

Lemma ideal_starts c L b n lo :
  map bstart (map (ideal_bin c L b) (zrange lo n)) = map (fun k => k * b) (zrange lo n).
Proof. rewrite map_map. apply map_ext. reflexivity. Qed.

Lemma ss_left_mul b : 1 <= b -> forall n lo x,
  searchsorted_left (map (fun k => k * b) (zrange lo n)) x = Z.max 0 (Z.min (Z.of_nat n) (cdiv x b - lo)).
Proof.
  intros Hb. induction n as [|n IH]; intros lo x; [cbn; lia|].
  rewrite zrange_cons. cbn [map searchsorted_left]. rewrite IH.
  pose proof (cdiv_le_iff x b lo ltac:(lia)). destruct (lo * b <? x) eqn:E; lia.
Qed.

Section FixedPath.
  Variable blocks : list (list bin).
  Variable i : nat.
  Variable blk : list bin.
  Variable b : Z.
  Hypothesis HV : ValidBlocks blocks.
  Hypothesis Hi : nth_error blocks i = Some blk.
  Hypothesis Hb : get_binsize (table blocks) = Some b.

  Let off := chrom_offset blocks i.
  Let L := chrom_len blk.

  Lemma fixed_shape : 1 <= b /\ 1 <= L /\ blk = ideal_chrom (Z.of_nat i) L b.
  Proof.
    destruct (binsize_truthful blocks b HV Hb) as [Hb1 Hid].
    destruct (HV i blk Hi) as [Hne HT]. pose proof (tiled_end_gt _ _ _ HT Hne : 0 < chrom_len blk).
    repeat split; auto; [unfold L; lia|]. exact (Hid i blk Hi).
  Qed.

  Lemma fixed_len : zlen blk = cdiv L b.
  Proof.
    destruct fixed_shape as (Hb1 & HL & Hid). unfold zlen. rewrite Hid at 1. unfold ideal_chrom.
    rewrite map_length, zrange_length. apply Z2Nat.id, cdiv_nonneg; lia.
  Qed.

  (** on the starts k*b of the ideal bins both insertion points are quotients *)
  Lemma fixed_ss_left e : 0 <= e -> searchsorted_left (map bstart blk) e = Z.min (cdiv L b) (cdiv e b).
  Proof.
    intros He. destruct fixed_shape as (Hb1 & HL & Hid). rewrite Hid at 1. unfold ideal_chrom.
    rewrite ideal_starts, (ss_left_mul b Hb1), Z2Nat.id by (apply cdiv_nonneg; lia).
    pose proof (cdiv_nonneg e b). pose proof (cdiv_nonneg L b). lia.
  Qed.

  Lemma fixed_ss_right s : 0 <= s -> searchsorted_right (map bstart blk) s = Z.min (cdiv L b) (s / b + 1).
  Proof.
    intros Hs. destruct fixed_shape as (Hb1 & _). now rewrite ss_right_left, fixed_ss_left, cdiv_succ by lia.
  Qed.

  (** the two paths differ only when the lower quotient reaches the number of bins: the empty range
      at a chromosome end that is a multiple of b *)
  Lemma paths_agree_below s e : 0 <= s -> 0 <= e <= L -> s / b < cdiv L b ->
    region_to_extent_fixed blocks i s e b = region_to_extent_var blocks i s e.
  Proof.
    intros Hs He Hq. destruct fixed_shape as (Hb1 & _). pose proof (cdiv_mono e L b).
    rewrite (var_unfold blocks i blk Hi), fixed_ss_left, fixed_ss_right by lia.
    unfold region_to_extent_fixed. f_equal; lia.
  Qed.

  (** when the table reports bin size b, integer arithmetic finds the same bins as the search *)
  Theorem extent_paths_agree s e : 0 <= s <= e -> e <= L -> s < L ->
    region_to_extent_fixed blocks i s e b = region_to_extent_var blocks i s e.
  Proof.
    intros Hse HeL HsL. destruct fixed_shape as (Hb1 & _).
    apply paths_agree_below; try lia. apply div_lt_cdiv; lia.
  Qed.

  Lemma extent_paths_agree_hi s e : 0 <= s <= e -> e <= L ->
    snd (region_to_extent_fixed blocks i s e b) = snd (region_to_extent_var blocks i s e).
  Proof.
    intros Hse HeL. destruct fixed_shape as (Hb1 & _).
    rewrite (var_unfold blocks i blk Hi), fixed_ss_left, Z.min_r by (try apply cdiv_mono; lia). reflexivity.
  Qed.

  Theorem extent_fixed_empty s : 0 <= s <= L ->
    let '(lo, hi) := region_to_extent_fixed blocks i s s b in
    lo <= hi <= lo + 1 /\ off <= lo /\ hi <= chrom_offset blocks (S i) /\
    (forall k : nat, lo <= Z.of_nat k < hi ->
       exists x, nth_error (table blocks) k = Some x /\ bchrom x = Z.of_nat i /\ bstart x < s <= bend x).
  Proof.
    intros Hs. destruct fixed_shape as (Hb1 & _).
    destruct (Z_lt_le_dec (s / b) (cdiv L b)) as [Hq|Hq].
    - rewrite paths_agree_below by lia. now apply (extent_var_empty blocks i blk HV Hi).
    - (* s / b = cdiv s b = cdiv L b: the extent is empty and ends where the block ends *)
      unfold region_to_extent_fixed. rewrite (chrom_offset_S _ _ _ Hi), fixed_len. fold off.
      pose proof (div_le_cdiv s b). pose proof (cdiv_mono s L b). pose proof (cdiv_nonneg L b).
      repeat split; intros; lia.
  Qed.
End FixedPath.

Theorem extent_overlap blocks i blk s e :
  ValidBlocks blocks -> nth_error blocks i = Some blk ->
  0 <= s < e -> e <= chrom_len blk ->
  let '(lo, hi) := region_to_extent blocks i s e in
  (forall k : nat, lo <= Z.of_nat k < hi <->
     exists x, nth_error (table blocks) k = Some x /\ bchrom x = Z.of_nat i /\ bstart x < e /\ s < bend x)
  /\ chrom_offset blocks i <= lo < hi /\ hi <= chrom_offset blocks (S i).
Proof.
  intros HV Hi Hse HeL. unfold region_to_extent.
  destruct (get_binsize (table blocks)) as [b|] eqn:Hb.
  - rewrite (extent_paths_agree blocks i blk b HV Hi Hb s e) by lia.
    now apply (extent_var_overlap blocks i blk HV Hi).
  - now apply (extent_var_overlap blocks i blk HV Hi).
Qed.

Theorem extent_empty blocks i blk s :
  ValidBlocks blocks -> nth_error blocks i = Some blk ->
  0 <= s <= chrom_len blk ->
  let '(lo, hi) := region_to_extent blocks i s s in
  lo <= hi <= lo + 1 /\ chrom_offset blocks i <= lo /\ hi <= chrom_offset blocks (S i) /\
  (forall k : nat, lo <= Z.of_nat k < hi ->
     exists x, nth_error (table blocks) k = Some x /\ bchrom x = Z.of_nat i /\ bstart x < s <= bend x).
Proof.
  intros HV Hi Hs. unfold region_to_extent.
  destruct (get_binsize (table blocks)) as [b|] eqn:Hb.
  - now apply (extent_fixed_empty blocks i blk b HV Hi Hb).
  - now apply (extent_var_empty blocks i blk HV Hi).
Qed.

(** the fixed path is only sound because the reported size is truthful: on a table whose last bin is
    longer (the input of the repaired defect D1) arithmetic with the common width selects a bin of the
    NEXT chromosome; get_binsize now reports None for it *)
Lemma extent_fixed_refuted :
  let blocks := [[(0,0,10);(0,10,20);(0,20,35)]; [(1,0,10);(1,10,20)]] in
  valid_blocks_b blocks = true /\
  region_to_extent_fixed blocks 0 25 35 10 = (2, 4) /\
  region_to_extent_var blocks 0 25 35 = (2, 3) /\
  get_binsize (table blocks) = None.
Proof. vm_compute. repeat split; reflexivity. Qed.

Definition dflt (d : Z) (o : option Z) : Z := match o with Some v => v | None => d end.

Theorem parse_region_spec sizes c s e :
  parse_region sizes c s e =
  match nth_error sizes c with
  | None => None
  | Some L => if (0 <=? dflt 0 s) && (dflt 0 s <=? dflt L e) && (dflt L e <=? L)
              then Some (c, dflt 0 s, dflt L e) else None
  end.
Proof.
  unfold parse_region, dflt. destruct (nth_error sizes c) as [L|]; [|reflexivity].
  generalize (match s with Some v => v | None => 0 end) as s', (match e with Some v => v | None => L end) as e'.
  intros s' e'.
  (* the three comparisons are the negations of the source's two refusals *)
  replace ((0 <=? s') && (s' <=? e') && (e' <=? L)) with (negb (e' <? s') && negb ((s' <? 0) || (L <? e'))) by lia.
  now destruct (e' <? s'), ((s' <? 0) || (L <? e')).
Qed.

Corollary parse_region_sound sizes c s e c' s' e' :
  parse_region sizes c s e = Some (c', s', e') ->
  exists L, nth_error sizes c = Some L /\ c' = c /\ s' = dflt 0 s /\ e' = dflt L e /\ 0 <= s' <= e' /\ e' <= L.
Proof.
  rewrite parse_region_spec. destruct (nth_error sizes c) as [L|]; [|discriminate].
  destruct ((0 <=? dflt 0 s) && (dflt 0 s <=? dflt L e) && (dflt L e <=? L)) eqn:E; [|discriminate].
  intros H. injection H as <- <- <-. exists L. repeat split; lia.
Qed.

Corollary parse_region_complete sizes c s e L :
  nth_error sizes c = Some L -> 0 <= dflt 0 s <= dflt L e -> dflt L e <= L ->
  parse_region sizes c s e = Some (c, dflt 0 s, dflt L e).
Proof.
  intros Hc H1 H2. rewrite parse_region_spec, Hc.
  destruct ((0 <=? dflt 0 s) && (dflt 0 s <=? dflt L e) && (dflt L e <=? L)) eqn:E; [reflexivity|lia].
Qed.

(** a predicate that holds exactly at the positions lo .. hi-1 selects that slice: nothing before it, all of it,
    nothing after it *)
Lemma filter_slice {A} (p : A -> bool) (l : list A) (lo hi : Z) :
  0 <= lo <= hi ->
  (forall k x, nth_error l k = Some x -> (p x = true <-> lo <= Z.of_nat k < hi)) ->
  slice l lo hi = filter p l.
Proof.
  intros Hle H. unfold slice.
  assert (Hout : forall k x, nth_error l k = Some x -> ~ lo <= Z.of_nat k < hi -> p x = false).
  { intros k x Hk Hn. destruct (p x) eqn:E; [|reflexivity]. now apply (H k x Hk) in E. }
  rewrite <- (firstn_skipn (Z.to_nat lo) l) at 2.
  rewrite <- (firstn_skipn (Z.to_nat (hi - lo)) (skipn (Z.to_nat lo) l)) at 2.
  rewrite !filter_app, filter_none, filter_all, filter_none; [now rewrite app_nil_r| | |];
    intros x Hx; apply In_nth_error in Hx as [k Hk].
  - rewrite !nth_error_skipn in Hk. apply (Hout _ x Hk). lia.
  - apply nth_error_firstn_some in Hk as [Hk Hlt]. rewrite nth_error_skipn in Hk. apply (H _ x Hk). lia.
  - apply nth_error_firstn_some in Hk as [Hk Hlt]. apply (Hout k x Hk). lia.
Qed.

(** Cooler.bins().fetch on a non-empty range returns exactly the overlapping bins of the chromosome,
    in table order *)
Theorem bins_fetch_overlap blocks i blk s e :
  ValidBlocks blocks -> nth_error blocks i = Some blk ->
  0 <= s < e -> e <= chrom_len blk ->
  bins_fetch blocks i (Some s) (Some e) = Some (filter (overlaps_b i s e) (table blocks)).
Proof.
  intros HV Hi Hse HeL. unfold bins_fetch, extent, chromsizes.
  rewrite (parse_region_complete _ i (Some s) (Some e) (chrom_len blk)); cbn [dflt]; try lia.
  2:{ now rewrite nth_error_map, Hi. }
  pose proof (extent_overlap blocks i blk s e HV Hi Hse HeL) as H.
  destruct (region_to_extent blocks i s e) as [lo hi]. destruct H as (Hiff & Hlo & Hhi).
  f_equal. apply filter_slice.
  - pose proof (chrom_offset_nonneg blocks i). lia.
  - intros k x Hk. rewrite (Hiff k). unfold overlaps_b. split.
    + intros Hp. exists x. split; [exact Hk|]. lia.
    + intros (x' & Hk' & Hc & H1 & H2). assert (x' = x) by congruence. subst x'. lia.
Qed.

(** on a non-decreasing column the left insertion point of v counts the rows below v *)
Lemma count_lt_ss_left {A} (g : A -> Z) (l : list A) v : StronglySorted Z.le (map g l) ->
  zlen (filter (fun p => g p <? v) l) = searchsorted_left (map g l) v.
Proof.
  induction l as [|a l IH]; intros HS; [reflexivity|].
  cbn [map] in HS. inversion HS as [|? ? HS' Hall]; subst. cbn [filter map searchsorted_left].
  destruct (g a <? v) eqn:E.
  - now rewrite zlen_cons, IH.
  - rewrite filter_none; [reflexivity|].
    intros x Hx. rewrite Forall_forall in Hall. specialize (Hall (g x) (in_map g _ _ Hx)). lia.
Qed.

Theorem slice_sorted_range {A} (g : A -> Z) (l : list A) lo hi :
  StronglySorted Z.le (map g l) -> lo <= hi ->
  slice l (zlen (filter (fun p => g p <? lo) l)) (zlen (filter (fun p => g p <? hi) l)) =
  filter (fun p => (lo <=? g p) && (g p <? hi)) l.
Proof.
  intros HS Hle. rewrite !count_lt_ss_left by exact HS.
  pose proof (ss_left_bounds (map g l) lo). pose proof (ss_left_mono (map g l) lo hi Hle).
  apply filter_slice; [lia|]. intros k x Hk.
  assert (Hg : nth_error (map g l) k = Some (g x)) by now rewrite nth_error_map, Hk.
  pose proof (ss_left_nth _ lo HS k _ Hg). pose proof (ss_left_nth _ hi HS k _ Hg). lia.
Qed.

Lemma tiled_ends_sorted c s0 blk : Tiled c s0 blk -> StronglySorted Z.le (map bend blk).
Proof.
  induction 1 as [|s e l Hse HT IH]; cbn [map]; constructor; auto.
  apply Forall_forall. intros y Hy. apply in_map_iff in Hy as [x [<- Hx]].
  pose proof (tiled_start_ge _ _ _ HT x Hx). pose proof (tiled_nonempty_width _ _ _ _ HT Hx).
  unfold bend at 1; cbn [snd]. lia.
Qed.

Lemma tiled_skipn c s0 blk n : Tiled c s0 blk -> exists s1, Tiled c s1 (skipn n blk).
Proof.
  intros HT. revert s0 blk HT. induction n as [|n IH]; intros s0 blk HT; [now exists s0|].
  destruct blk as [|x blk]; [exists s0; constructor|]. inversion HT; subst. cbn [skipn]. eauto.
Qed.

(** bedslice returns exactly the bins of the block that overlap the range (for an empty range:
    the bin that strictly contains the position, if any) *)
Theorem bedslice_overlap c blk s e :
  Tiled c 0 blk -> 0 <= s <= e -> e <= chrom_len blk ->
  bedslice blk (chrom_len blk) s e = filter (fun x => (bstart x <? e) && (s <? bend x)) blk.
Proof.
  intros HT Hse HeL. unfold bedslice, bedslice_range.
  destruct ((0 <? s) || (e <? chrom_len blk)) eqn:Hcase.
  - set (lo := searchsorted_right (map bend blk) s).
    set (tl := skipn (Z.to_nat lo) blk).
    pose proof (ss_right_bounds (map bend blk) s) as Hlo. fold lo in Hlo. unfold zlen in Hlo. rewrite map_length in Hlo.
    pose proof (ss_left_bounds (map bstart tl) e) as Hhi. unfold zlen in Hhi. rewrite map_length in Hhi.
    apply filter_slice; [lia|].
    intros k x Hk.
    pose proof (ss_right_nth _ s (tiled_ends_sorted _ _ _ HT) k (bend x) ltac:(now rewrite nth_error_map, Hk)) as Hr.
    fold lo in Hr.
    destruct (Z.ltb_spec (Z.of_nat k) lo) as [Hlt|Hge].
    + lia.
    + destruct (tiled_skipn c 0 blk (Z.to_nat lo) HT) as [s1 HT1]. fold tl in HT1.
      assert (Hk' : nth_error tl (k - Z.to_nat lo) = Some x).
      { unfold tl. rewrite nth_error_skipn. replace (Z.to_nat lo + (k - Z.to_nat lo))%nat with k by lia. exact Hk. }
      pose proof (ss_left_nth _ e (tiled_starts_sorted _ _ _ HT1) _ (bstart x) ltac:(now rewrite nth_error_map, Hk')) as Hl.
      lia.
  - assert (s = 0 /\ e = chrom_len blk) as [-> ->] by lia.
    unfold slice. rewrite Z.sub_0_r. unfold zlen. rewrite Nat2Z.id. cbn [Z.to_nat skipn]. rewrite firstn_all.
    symmetry. apply filter_all. intros x Hx.
    pose proof (tiled_start_ge _ _ _ HT x Hx). pose proof (tiled_nonempty_width _ _ _ _ HT Hx).
    pose proof (tiled_end_le_len _ _ _ HT x Hx). lia.
Qed.

(** on a non-empty range bedslice and the extent select the same bins *)
Corollary bedslice_eq_extent blocks i blk s e :
  ValidBlocks blocks -> nth_error blocks i = Some blk ->
  0 <= s < e -> e <= chrom_len blk ->
  Some (bedslice blk (chrom_len blk) s e) = bins_fetch blocks i (Some s) (Some e).
Proof.
  intros HV Hi Hse HeL. rewrite (bins_fetch_overlap blocks i blk s e HV Hi Hse HeL). f_equal.
  destruct (HV i blk Hi) as [_ HT]. rewrite (bedslice_overlap _ _ _ _ HT) by lia.
  (* filter over the table = filter over the block *)
  unfold table. rewrite (concat_split _ _ _ Hi), !filter_app.
  rewrite (filter_none (overlaps_b i s e) (concat (firstn i blocks))), (filter_none (overlaps_b i s e) (concat (skipn (S i) blocks))).
  - rewrite app_nil_r. cbn [app]. apply filter_ext_in. intros x Hx. unfold overlaps_b.
    rewrite (tiled_chrom _ _ _ _ HT Hx), Z.eqb_refl. reflexivity.
  - intros x Hx. pose proof (skipn_chrom _ _ _ HV Hx). unfold overlaps_b. lia.
  - intros x Hx. pose proof (firstn_chrom _ _ _ HV Hx). unfold overlaps_b. lia.
Qed.

(** whole chromosome (bare name, or both ends open): exactly the chromosome's span of the table *)
Theorem extent_whole_chrom blocks i blk :
  ValidBlocks blocks -> nth_error blocks i = Some blk ->
  extent blocks i None None = Some (chrom_offset blocks i, chrom_offset blocks (S i)).
Proof.
  intros HV Hi. destruct (HV i blk Hi) as [Hne HT].
  pose proof (tiled_end_gt _ _ _ HT Hne : 0 < chrom_len blk) as HL.
  unfold extent, chromsizes.
  rewrite (parse_region_complete _ i None None (chrom_len blk)); cbn [dflt]; try lia.
  2:{ now rewrite nth_error_map, Hi. }
  pose proof (extent_overlap blocks i blk 0 (chrom_len blk) HV Hi ltac:(lia) ltac:(lia)) as H.
  destruct (region_to_extent blocks i 0 (chrom_len blk)) as [lo hi]. destruct H as (Hiff & Hlo & Hhi).
  rewrite (chrom_offset_S _ _ _ Hi) in *. pose proof (chrom_offset_nonneg blocks i) as Hoff.
  assert (Hlen : (0 < length blk)%nat) by (destruct blk; [congruence|cbn; lia]).
  (* every row of the block overlaps [0, L), so the first and the last lie in the extent *)
  assert (Hall : forall j, (j < length blk)%nat -> lo <= chrom_offset blocks i + Z.of_nat j < hi).
  { intros j Hj. destruct (nth_error blk j) as [x|] eqn:Hx; [|apply nth_error_None in Hx; lia].
    pose proof (nth_error_In _ _ Hx) as Hin.
    pose proof (tiled_start_ge _ _ _ HT x Hin). pose proof (tiled_nonempty_width _ _ _ _ HT Hin).
    pose proof (tiled_end_le_len _ _ _ HT x Hin).
    assert (lo <= Z.of_nat (Z.to_nat (chrom_offset blocks i) + j) < hi); [|lia].
    apply Hiff. exists x. rewrite (nth_error_table _ _ _ j Hi Hj).
    repeat split; [exact Hx|exact (tiled_chrom _ _ _ _ HT Hin)|lia|lia]. }
  pose proof (Hall 0%nat Hlen). pose proof (Hall (length blk - 1)%nat ltac:(lia)).
  unfold zlen in *. do 2 f_equal; lia.
Qed.

(** the block-wise chrom_offset is the number of table rows of the chromosomes before c:
    the contract of indexes/chrom_offset read on the flat bin table *)
Theorem chrom_offset_counts blocks c :
  ValidBlocks blocks ->
  chrom_offset blocks c = zlen (filter (fun x => bchrom x <? Z.of_nat c) (table blocks)).
Proof.
  intros HV. unfold chrom_offset, table.
  rewrite <- (firstn_skipn c blocks) at 2. rewrite concat_app, filter_app.
  rewrite (filter_all _ (concat (firstn c blocks))), (filter_none _ (concat (skipn c blocks))).
  - now rewrite app_nil_r.
  - intros x Hx. pose proof (skipn_chrom _ _ _ HV Hx). lia.
  - intros x Hx. pose proof (firstn_chrom _ _ _ HV Hx). lia.
Qed.

(** C16: the model's own chunking (CSRReader.get_spans for chunksize >= nnz) is admissible.
    The offsets, the single-span edge of Model/Dump.v and what it leaves behind. *)
From Coq Require Import Sorted ZifyBool.
From Coq Require Import List.
From Cooler Require Import Model.Dump Proofs.BaseProofs Proofs.PixelsProofs Proofs.DumpProofs.
Open Scope Z_scope.

Lemma offset_diff px a b :
  a <= b -> offset px b = offset px a + zlen (filter (fun p => negb (row p <? a) && (row p <? b)) px).
Proof.
  intro Hab. unfold offset, zlen. induction px as [|p t IH]; [reflexivity|]. cbn [filter].
  destruct (row p <? a) eqn:Ea, (row p <? b) eqn:Eb; cbn [negb andb length]; lia.
Qed.

Lemma offset_mono px a b : a <= b -> offset px a <= offset px b.
Proof. intro Hab. rewrite (offset_diff px a b Hab). unfold zlen. lia. Qed.

Lemma offset_lt_iff px a b :
  a <= b -> (offset px a < offset px b <-> exists p, In p px /\ a <= row p < b).
Proof.
  intro Hab. rewrite (offset_diff px a b Hab). unfold zlen.
  set (f := fun p => negb (row p <? a) && (row p <? b)).
  assert (Hf : forall p, In p (filter f px) <-> In p px /\ a <= row p < b).
  { intro p. rewrite filter_In. unfold f. split; intros [Hp Hr]; (split; [exact Hp|lia]). }
  destruct (filter f px) as [|q t]; cbn [length]; split; try lia.
  - intros (p & Hp). now apply Hf in Hp.
  - intros _. exists q. apply Hf. now left.
Qed.

Lemma offset_strict px a b p : a <= b -> In p px -> a <= row p < b -> offset px a < offset px b.
Proof. intros Hab Hin Hr. apply offset_lt_iff; [assumption|]. now exists p. Qed.

Lemma last_edge_spec px i0 i1 :
  i0 <= i1 ->
  i0 <= last_edge px i0 i1 <= i1 /\
  (forall p, In p px -> i0 <= row p < i1 -> row p < last_edge px i0 i1) /\
  (last_edge px i0 i1 <> i0 -> offset px i0 < offset px i1).
Proof.
  intro Hi. unfold last_edge. set (n := Z.to_nat (i1 - i0 + 1)). set (L := map (offset px) (zrange i0 n)).
  assert (Hlen : length L = n) by (unfold L; now rewrite map_length, zrange_length).
  pose proof (ss_left_bounds L (offset px i1)) as Hk. pose proof (ss_left_nth_ge L (offset px i1)) as Hn.
  unfold zlen in *. rewrite Hlen in *.
  assert (Hstop : searchsorted_left L (offset px i1) <= i1 - i0).
  { replace (i1 - i0) with (Z.of_nat (Z.to_nat (i1 - i0))) by lia. apply ss_left_stops; [lia|].
    unfold L. rewrite nth_map_zrange by lia. replace (i0 + Z.of_nat (Z.to_nat (i1 - i0))) with i1 by lia. lia. }
  split; [lia|split].
  - intros p Hp Hr. set (k := searchsorted_left L (offset px i1)) in *.
    destruct (Z_lt_ge_dec (row p) (i0 + k)) as [Hlt|Hge]; [assumption|exfalso].
    assert (Hk' : k < Z.of_nat n) by lia. specialize (Hn Hk').
    unfold L in Hn. rewrite nth_map_zrange in Hn by lia. rewrite Z2Nat.id in Hn by lia.
    pose proof (offset_strict px (i0 + k) i1 p ltac:(lia) Hp ltac:(lia)). lia.
  - unfold L, n. replace (Z.to_nat (i1 - i0 + 1)) with (S (Z.to_nat (i1 - i0))) by lia.
    rewrite zrange_cons. cbn [map searchsorted_left]. destruct (offset px i0 <? offset px i1) eqn:E; lia.
Qed.

(** a box without rows or without columns holds no record, so no cut at all will do *)
Lemma no_cuts_admissible px i0 i1 j0 j1 :
  i0 <= i1 -> (i1 - i0 <? 1) || (j1 - j0 <? 1) = true -> AdmissibleCuts px (i0, i1, j0, j1) [].
Proof.
  intros Hi Hd. cbn. repeat split; [constructor|lia|]. intros p _ Hp. unfold span_pred, inb in Hp. lia.
Qed.

(** the model's own (single-span) chunking is admissible *)
Theorem edges1_admissible px i0 i1 j0 j1 :
  i0 <= i1 -> AdmissibleCuts px (i0, i1, j0, j1) (edges1 px (i0, i1, j0, j1)).
Proof.
  intro Hi. unfold edges1, degenerate. destruct ((i1 - i0 <? 1) || (j1 - j0 <? 1)) eqn:Ed.
  - now apply no_cuts_admissible.
  - destruct (last_edge_spec px i0 i1 Hi) as (He & Hcov & _).
    destruct (last_edge px i0 i1 =? i0) eqn:Ee; cbn; (repeat split; [repeat constructor; lia|lia|]);
      intros p Hp Hs; specialize (Hcov p Hp); unfold span_pred, inb in Hs; lia.
Qed.

(** ... and it has a span exactly when some stored pixel lies in the row range of a non-degenerate box *)
Lemma edges1_has_span px i0 i1 j0 j1 :
  i0 <= i1 ->
  (spans_of (edges1 px (i0, i1, j0, j1)) <> [] <->
   degenerate (i0, i1, j0, j1) = false /\ exists p, In p px /\ i0 <= row p < i1).
Proof.
  intro Hi. unfold edges1. destruct (degenerate (i0, i1, j0, j1)) eqn:Ed.
  - cbn. split; [intro H; now contradiction H|intros [H _]; discriminate].
  - destruct (last_edge_spec px i0 i1 Hi) as (He & Hcov & Hmove). rewrite <- (offset_lt_iff px i0 i1 Hi).
    destruct (last_edge px i0 i1 =? i0) eqn:Ee; cbn.
    + split; [intro H; now contradiction H|]. intros [_ Hlt]. apply (offset_lt_iff px i0 i1 Hi) in Hlt as (p & Hp & Hr).
      specialize (Hcov p Hp Hr). lia.
    + split; [intros _; split; [reflexivity|apply Hmove; lia]|discriminate].
Qed.

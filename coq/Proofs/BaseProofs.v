(** Facts about the list helpers of Model/Base.v ([zlen], [zrange], [slice], [searchsorted_left], [sumZ], [enumerate], [keqb]) and the
    facts about plain lists ([firstn] / [skipn] / [nth] / [last], [NoDup], [concat], [combine], [filter],
    [StronglySorted]) that the standard library of Coq 8.16 lacks. *)
From Cooler Require Import Model.Base.
From Coq Require Import Permutation Sorted.

(** [lia] knows nothing of [/] and [mod]; [divlia] first replaces each quotient and remainder by its defining equations.
    (Redefining [Zify.zify_post_hook] would do the same for every [lia] of every importing file, and make all of them dearer.) *)
Ltac divlia := Z.to_euclidean_division_equations; lia.

Lemma firstn_add {A} (l : list A) a b : firstn (a + b) l = firstn a l ++ firstn b (skipn a l).
Proof.
  revert l; induction a as [|a IH]; intro l; cbn [Nat.add]; [reflexivity|].
  destruct l as [|x l]; cbn [firstn skipn app]; [now rewrite firstn_nil|]. now rewrite IH.
Qed.

Lemma skipn_add {A} (l : list A) a b : skipn (a + b) l = skipn b (skipn a l).
Proof.
  revert l; induction a as [|a IH]; intro l; cbn [Nat.add]; [reflexivity|].
  destruct l as [|x l]; cbn [skipn]; [now rewrite skipn_nil|]. apply IH.
Qed.

Lemma nth_error_skipn {A} (l : list A) k i : nth_error (skipn k l) i = nth_error l (k + i).
Proof.
  revert l; induction k as [|k IH]; intro l; [reflexivity|].
  destruct l as [|x l]; cbn [skipn Nat.add nth_error]; [now destruct i|apply IH].
Qed.

Lemma nth_skipn {A} (l : list A) k i d : nth i (skipn k l) d = nth (k + i) l d.
Proof.
  revert l; induction k as [|k IH]; intro l; [reflexivity|].
  destruct l as [|x l]; cbn [skipn Nat.add nth]; [now destruct i|apply IH].
Qed.

Lemma firstn_S_nth_error {A} (l : list A) i x : nth_error l i = Some x -> firstn (S i) l = firstn i l ++ [x].
Proof.
  revert i; induction l as [|y l IH]; intros [|i] H; try discriminate; cbn [firstn app nth_error] in *.
  - now injection H as ->.
  - f_equal. now apply IH.
Qed.

Lemma skipn_nth_error_cons {A} (l : list A) i x : nth_error l i = Some x -> skipn i l = x :: skipn (S i) l.
Proof.
  revert i; induction l as [|y l IH]; intros [|i] H; try discriminate; cbn [skipn nth_error] in *.
  - now injection H as ->.
  - now apply IH.
Qed.

(** primed, because later versions of the standard library have these two under the plain names *)
Lemma nth_error_nil' {A} i : nth_error (@nil A) i = None.
Proof. now destruct i. Qed.

Lemma nth_error_ext' {A} (l l' : list A) : (forall n, nth_error l n = nth_error l' n) -> l = l'.
Proof.
  revert l'. induction l as [|a l IH]; intros [|b l'] H; [reflexivity|discriminate (H 0%nat)..|].
  injection (H 0%nat) as ->. f_equal. apply IH. intro n. apply (H (S n)).
Qed.

Lemma nth_error_firstn {A} (l : list A) k i : nth_error (firstn k l) i = if (i <? k)%nat then nth_error l i else None.
Proof.
  revert l i. induction k as [|k IH]; intros l i; [apply nth_error_nil'|].
  destruct l as [|x l]; [rewrite firstn_nil, nth_error_nil'; now destruct (i <? S k)%nat|].
  destruct i as [|i]; [reflexivity|]. cbn [firstn nth_error]. rewrite IH. reflexivity.
Qed.

Lemma nth_error_firstn_some {A} (l : list A) n j x : nth_error (firstn n l) j = Some x -> nth_error l j = Some x /\ (j < n)%nat.
Proof. rewrite nth_error_firstn. destruct (Nat.ltb_spec j n); [now split|discriminate]. Qed.

Lemma nth_firstn_lt {A} (l : list A) k m d : (k < m)%nat -> nth k (firstn m l) d = nth k l d.
Proof.
  revert k l; induction m as [|m IH]; intros k l H; [lia|].
  destruct l as [|a l]; [now rewrite firstn_nil|]. destruct k; cbn [firstn nth]; [reflexivity|]. apply IH. lia.
Qed.

(** [map_nth] of the standard library wants the default of the mapped list to be [f] of the other default *)
Lemma nth_map_lt {A B} (f : A -> B) l k d d' : (k < length l)%nat -> nth k (map f l) d = f (nth k l d').
Proof. intro Hk. rewrite (nth_indep _ d (f d')) by now rewrite map_length. apply map_nth. Qed.

Lemma concat_split {A} (blocks : list (list A)) i blk : nth_error blocks i = Some blk ->
  concat blocks = concat (firstn i blocks) ++ blk ++ concat (skipn (S i) blocks).
Proof.
  intros Hi. rewrite <- (firstn_skipn i blocks) at 1. now rewrite (skipn_nth_error_cons _ _ _ Hi), concat_app.
Qed.

Lemma last_cons {A} (l : list A) a b : last (b :: l) a = last l b.
Proof. revert a b; induction l as [|c l IH]; intros a b; [reflexivity|]. change (last (c :: l) a = last (c :: l) b). now rewrite (IH a), (IH b). Qed.

Lemma last_in {A} (l : list A) d : In (last l d) (d :: l).
Proof. revert d; induction l as [|c l IH]; intro d; [now left|]. rewrite last_cons. right. apply IH. Qed.

Lemma last_nth {A} (l : list A) d : last l d = nth (length l - 1) l d.
Proof.
  induction l as [|c l IH]; [reflexivity|]. destruct l as [|e l]; [reflexivity|].
  change (last (e :: l) d = nth (length l) (e :: l) d). rewrite IH. f_equal. cbn [length]. lia.
Qed.

Lemma in_firstn {A} k (l : list A) x : In x (firstn k l) -> In x l.
Proof. intros H. rewrite <- (firstn_skipn k l). apply in_or_app. now left. Qed.

Lemma in_removelast {A} (x : A) l : In x (removelast l) -> In x l.
Proof.
  induction l as [|a [|a' l] IH]; [intros []..|]. change (removelast (a :: a' :: l)) with (a :: removelast (a' :: l)).
  intros [->|H]; [now left|right; now apply IH].
Qed.

Lemma forall_last {A} (P : A -> Prop) l d : Forall P (d :: l) -> P (last l d).
Proof. intro H. rewrite Forall_forall in H. apply H, last_in. Qed.

Lemma NoDup_app_parts {A} (a b : list A) : NoDup (a ++ b) -> NoDup a /\ NoDup b.
Proof.
  induction a as [|x a IH]; cbn [app]; intros H; [split; [constructor|exact H]|].
  apply NoDup_cons_iff in H as [Hx [Ha Hb]%IH]. rewrite in_app_iff in Hx. split; [constructor; tauto|exact Hb].
Qed.
Lemma NoDup_app_intro {A} (a b : list A) : NoDup a -> NoDup b -> (forall x, In x a -> ~ In x b) -> NoDup (a ++ b).
Proof.
  induction 1 as [|x a Hx _ IH]; intros Hb Hd; [exact Hb|]. cbn [app]. constructor.
  - rewrite in_app_iff. intros [H|H]; [exact (Hx H)|]. exact (Hd x (or_introl eq_refl) H).
  - apply IH; [exact Hb|]. intros y Hy. apply Hd. now right.
Qed.

(** what holds of a concatenation holds of each of its parts *)
Lemma Forall_concat_In {A} (P : A -> Prop) ls l : Forall P (concat ls) -> In l ls -> Forall P l.
Proof. rewrite Forall_concat, Forall_forall. auto. Qed.
Lemma NoDup_map_concat_In {A B} (g : A -> B) ls l : NoDup (map g (concat ls)) -> In l ls -> NoDup (map g l).
Proof.
  induction ls as [|c t IH]; cbn [concat In]; [contradiction|].
  rewrite map_app. intros [Hc Ht]%NoDup_app_parts [<-|Hin]; auto.
Qed.

Lemma map_flat_map {A B C} (f : B -> C) (g : A -> list B) l : map f (flat_map g l) = flat_map (fun a => map f (g a)) l.
Proof. induction l as [|a t IH]; cbn [flat_map map]; [reflexivity|]. now rewrite map_app, IH. Qed.

Lemma combine_snoc {A B} (l : list A) (r : list B) a b0 :
  length l = length r -> combine (l ++ [a]) (r ++ [b0]) = combine l r ++ [(a, b0)].
Proof.
  revert r. induction l as [|x l IH]; intros [|y r] H; cbn in *; try discriminate; auto.
  f_equal. apply IH. congruence.
Qed.
Lemma combine_map_both {A B C} (f : A -> B) (g : A -> C) l : combine (map f l) (map g l) = map (fun x => (f x, g x)) l.
Proof. induction l as [|x l IH]; [reflexivity|]. cbn [map combine]. now rewrite IH. Qed.
Lemma nth_error_combine {A B} (l : list A) (r : list B) i a b :
  nth_error l i = Some a -> nth_error r i = Some b -> nth_error (combine l r) i = Some (a, b).
Proof.
  revert r i; induction l as [|x l IH]; intros [|y r] [|i]; cbn [nth_error combine]; try discriminate; [congruence|apply IH].
Qed.
Lemma nth_map_combine {A B C} (f : A * B -> C) (la : list A) (lb : list B) k da db dc :
  length la = length lb -> (k < length la)%nat -> nth k (map f (combine la lb)) dc = f (nth k la da, nth k lb db).
Proof.
  intros E Hk. rewrite (nth_map_lt f _ k dc (da, db)) by (rewrite combine_length; lia). now rewrite combine_nth.
Qed.
Lemma map_snd_combine {A B} (l : list A) (r : list B) : length l = length r -> map snd (combine l r) = r.
Proof. revert r. induction l as [|x l IH]; intros [|y r] H; cbn in *; try discriminate; [reflexivity|]. f_equal. apply IH. lia. Qed.

Lemma concat_map_singleton {A B} (f : A -> list B) (g : A -> B) l : (forall x, In x l -> f x = [g x]) -> concat (map f l) = map g l.
Proof.
  induction l as [|x t IH]; intro H; [reflexivity|]. cbn [map concat]. rewrite (H x (or_introl eq_refl)).
  cbn [app]. f_equal. apply IH. intros y Hy. apply H. now right.
Qed.

Lemma nodup_map_filter {A B} (f : A -> B) g l : NoDup (map f l) -> NoDup (map f (filter g l)).
Proof.
  induction l as [|a t IH]; cbn [map filter]; intro H; [constructor|]. apply NoDup_cons_iff in H as [Ha Ht].
  destruct (g a); [|now apply IH]. cbn [map]. constructor; [|now apply IH].
  intros [y [Hy [Hin _]%filter_In]]%in_map_iff. apply Ha. rewrite <- Hy. now apply in_map.
Qed.

Lemma in_concat_map {A B} (f : A -> list B) l q :
  In q (concat (map f l)) <-> exists t, In t l /\ In q (f t).
Proof. rewrite <- flat_map_concat_map. apply in_flat_map. Qed.

Lemma concat_concat_map {A B} (f : A -> list (list B)) l :
  concat (concat (map f l)) = concat (map (fun t => concat (f t)) l).
Proof. induction l as [|x t IH]; [reflexivity|]. cbn. now rewrite concat_app, IH. Qed.

Lemma concat_app_perm {A B} (f g : A -> list B) l :
  Permutation (concat (map (fun k => f k ++ g k) l)) (concat (map f l) ++ concat (map g l)).
Proof.
  induction l as [|x t IH]; [reflexivity|]. cbn [map concat].
  rewrite IH. rewrite <- !app_assoc. apply Permutation_app_head.
  rewrite !app_assoc. apply Permutation_app_tail. apply Permutation_app_comm.
Qed.

Lemma nodup_concat_map {A B} (f : A -> list B) (c : A -> B -> bool) l :
  (forall t x, In t l -> In x (f t) -> c t x = true) -> (forall t, In t l -> NoDup (f t)) ->
  ForallOrdPairs (fun t u => forall x, c t x && c u x = false) l -> NoDup (concat (map f l)).
Proof.
  intros Hc Hn Hd. induction Hd as [|t l Ht _ IH]; [constructor|]. cbn [map concat].
  apply NoDup_app_intro; [apply Hn; now left|apply IH; intros; [apply Hc|apply Hn]; auto; now right|].
  intros x Hx Hl. apply in_concat_map in Hl as (u & Hu & Hxu). rewrite Forall_forall in Ht.
  specialize (Ht u Hu x). rewrite (Hc t x (or_introl eq_refl) Hx), (Hc u x (or_intror Hu) Hxu) in Ht. discriminate.
Qed.

Lemma filter_all {A} (f : A -> bool) l : (forall x, In x l -> f x = true) -> filter f l = l.
Proof.
  induction l as [|x l IH]; intros H; [reflexivity|]. cbn [filter].
  rewrite (H x (or_introl eq_refl)). f_equal. apply IH. intros; apply H; now right.
Qed.
Lemma filter_none {A} (f : A -> bool) l : (forall x, In x l -> f x = false) -> filter f l = [].
Proof.
  induction l as [|x l IH]; intros H; [reflexivity|]. cbn [filter].
  rewrite (H x (or_introl eq_refl)). apply IH. intros; apply H; now right.
Qed.
Lemma filter_map_swap {A B} (h : A -> B) (f : B -> bool) l : filter f (map h l) = map h (filter (fun x => f (h x)) l).
Proof. induction l as [|x l IH]; [reflexivity|]. cbn [map filter]. destruct (f (h x)); cbn [map]; now rewrite IH. Qed.

Lemma filter_filter {A} (f g : A -> bool) l : filter f (filter g l) = filter (fun x => g x && f x) l.
Proof. induction l as [|a t IH]; [reflexivity|]. cbn [filter]. destruct (g a); cbn [filter andb]; now rewrite IH. Qed.

Lemma existsb_false_Forall {A} (p : A -> bool) (P : A -> Prop) l : (forall x, p x = false <-> P x) -> existsb p l = false <-> Forall P l.
Proof.
  intros Hp. induction l as [|x t IH]; cbn [existsb]; [split; [constructor|reflexivity]|].
  rewrite orb_false_iff, IH, Hp. split; [intros []; now constructor|intros H; inversion H; auto].
Qed.

Lemma Permutation_filter {A} (f : A -> bool) l l' : Permutation l l' -> Permutation (filter f l) (filter f l').
Proof.
  induction 1 as [|x l l' _ IH|x y l|l l' l'' _ IH1 _ IH2]; cbn.
  - constructor.
  - destruct (f x); [now constructor|exact IH].
  - destruct (f x), (f y); try reflexivity. apply perm_swap.
  - now transitivity (filter f l').
Qed.

Lemma sorted_weaken {A} (R S : A -> A -> Prop) l : (forall a b, R a b -> S a b) -> StronglySorted R l -> StronglySorted S l.
Proof.
  intros HRS H. induction H as [|a t Ht IH Hall]; constructor; [exact IH|]. eapply Forall_impl; [|exact Hall]. intros; now apply HRS.
Qed.

Lemma ssorted_app {A} (R : A -> A -> Prop) a b :
  StronglySorted R a -> StronglySorted R b -> (forall x y, In x a -> In y b -> R x y) -> StronglySorted R (a ++ b).
Proof.
  induction 1 as [|x a HS IH HF]; intros Sb H; [exact Sb|]. cbn [app]. constructor.
  - apply IH; [exact Sb|]. intros; apply H; [right|]; assumption.
  - apply Forall_app. split; [exact HF|]. apply Forall_forall. intros y Hy. apply H; [now left|exact Hy].
Qed.

Lemma ssorted_app_inv {A} (R : A -> A -> Prop) a b : StronglySorted R (a ++ b) -> StronglySorted R a /\ StronglySorted R b.
Proof.
  induction a as [|x a IH]; cbn [app]; intro H; [split; [constructor|exact H]|]. apply StronglySorted_inv in H as [H Hall].
  apply IH in H. apply Forall_app in Hall. split; [constructor|]; tauto.
Qed.

Lemma ssorted_slice {A} (R : A -> A -> Prop) l lo hi : StronglySorted R l -> StronglySorted R (slice l lo hi).
Proof.
  intro H. unfold slice. rewrite <- (firstn_skipn (Z.to_nat lo) l) in H. apply ssorted_app_inv, proj2 in H.
  rewrite <- (firstn_skipn (Z.to_nat (hi - lo)) (skipn _ l)) in H. now apply ssorted_app_inv in H.
Qed.

Lemma ssorted_filter {A} (R : A -> A -> Prop) f l : StronglySorted R l -> StronglySorted R (filter f l).
Proof.
  induction 1 as [|x t Hs IH Hf]; cbn [filter]; [constructor|].
  destruct (f x); [|exact IH]. constructor; [exact IH|].
  rewrite Forall_forall in *. intros y Hy. apply filter_In in Hy. apply Hf. tauto.
Qed.

Lemma ssorted_map {A B} (R : A -> A -> Prop) (R' : B -> B -> Prop) (f : A -> B) l :
  StronglySorted R l -> (forall x y, In x l -> In y l -> R x y -> R' (f x) (f y)) -> StronglySorted R' (map f l).
Proof.
  induction 1 as [|a l HS IH Hall]; intros Hf; cbn [map]; constructor.
  - apply IH. intros x y Hx Hy. apply Hf; now right.
  - rewrite Forall_forall in *. intros y [x [<- Hx]]%in_map_iff. apply Hf; [now left|now right|now apply Hall].
Qed.

Lemma ssorted_map_inv {A B} (R : B -> B -> Prop) (f : A -> B) l :
  StronglySorted R (map f l) -> StronglySorted (fun a b => R (f a) (f b)) l.
Proof.
  induction l as [|a t IH]; intro H; [constructor|]. cbn [map] in H. apply StronglySorted_inv in H as [Ht Hall].
  constructor; [now apply IH|]. rewrite Forall_forall in *. intros x Hx. apply Hall. now apply in_map.
Qed.

Lemma ssorted_nodup {A} (R : A -> A -> Prop) : (forall x, ~ R x x) -> forall l, StronglySorted R l -> NoDup l.
Proof.
  intros Hirr l. induction 1 as [|x t Hs IH Hf]; constructor; [|exact IH].
  intros Hin. rewrite Forall_forall in Hf. exact (Hirr x (Hf x Hin)).
Qed.

(** a strictly sorted list is determined by its members *)
Lemma ssorted_ext {A} (R : A -> A -> Prop) : (forall x, ~ R x x) -> (forall x y z, R x y -> R y z -> R x z) ->
  forall a b, StronglySorted R a -> StronglySorted R b -> (forall k, In k a <-> In k b) -> a = b.
Proof.
  intros Hirr Htr. induction a as [|x a IH]; intros [|y b] Sa Sb H;
    [reflexivity|destruct (proj2 (H y)); now left|destruct (proj1 (H x)); now left|].
  inversion Sa as [|? ? Sa' Fa]; inversion Sb as [|? ? Sb' Fb]; subst. rewrite Forall_forall in Fa, Fb.
  assert (x = y) as ->.
  { destruct (proj1 (H x) (or_introl eq_refl)) as [E|E]; [now symmetry|].
    destruct (proj2 (H y) (or_introl eq_refl)) as [E'|E']; [exact E'|].
    destruct (Hirr x). eapply Htr; [apply Fa, E'|apply Fb, E]. }
  f_equal. apply IH; auto. intro k. split; intro X.
  - destruct (proj1 (H k) (or_intror X)) as [<-|E]; [|exact E]. destruct (Hirr y). now apply Fa.
  - destruct (proj2 (H k) (or_intror X)) as [<-|E]; [|exact E]. destruct (Hirr y). now apply Fb.
Qed.

Lemma sorted_le_nth l : StronglySorted Z.le l -> forall i j, (i <= j < length l)%nat -> nth i l 0 <= nth j l 0.
Proof.
  induction 1 as [|a l HS IH Hall]; intros i j Hij; [cbn in Hij; lia|].
  destruct i as [|i], j as [|j]; cbn [nth length] in *; try lia.
  - rewrite Forall_forall in Hall. apply Hall. apply nth_In. lia.
  - apply IH. lia.
Qed.

Lemma sorted_le_last l d : StronglySorted Z.le l -> forall x, In x l -> x <= last l d.
Proof.
  intro H. revert d. induction H as [|a l HS IH Hall]; intros d x Hx; [destruct Hx|]. rewrite last_cons.
  destruct Hx as [<-|Hx]; [|now apply IH]. apply (forall_last (Z.le a)). constructor; [apply Z.le_refl|exact Hall].
Qed.

Lemma zlen_cons {A} (x : A) l : zlen (x :: l) = 1 + zlen l.
Proof. unfold zlen. cbn [length]. lia. Qed.
Lemma zlen_app {A} (a b : list A) : zlen (a ++ b) = zlen a + zlen b.
Proof. unfold zlen. rewrite app_length. lia. Qed.
Lemma zlen_map {A B} (f : A -> B) l : zlen (map f l) = zlen l.
Proof. unfold zlen. now rewrite map_length. Qed.
Lemma zlen_nonneg {A} (a : list A) : 0 <= zlen a.
Proof. unfold zlen. lia. Qed.
Lemma zlen_0_nil {A} (a : list A) : zlen a = 0 -> a = [].
Proof. destruct a as [|x a]; [reflexivity|]. rewrite zlen_cons. pose proof (zlen_nonneg a). lia. Qed.

Lemma zrange_cons lo n : zrange lo (S n) = lo :: zrange (lo + 1) n.
Proof.
  unfold zrange. cbn [seq map]. f_equal; [lia|]. rewrite <- seq_shift, map_map. apply map_ext. intros; lia.
Qed.
Lemma zrange_snoc lo n : zrange lo (S n) = zrange lo n ++ [lo + Z.of_nat n].
Proof. unfold zrange. now rewrite seq_S, map_app. Qed.
Lemma zrange_app lo a b : zrange lo (a + b) = zrange lo a ++ zrange (lo + Z.of_nat a) b.
Proof.
  revert lo; induction a as [|a IH]; intro lo; cbn [Nat.add]; [cbn; f_equal; lia|].
  rewrite !zrange_cons, IH. cbn [app]. do 3 f_equal. lia.
Qed.
Lemma zrange_length lo n : length (zrange lo n) = n.
Proof. unfold zrange. now rewrite map_length, seq_length. Qed.
Lemma in_zrange lo n x : In x (zrange lo n) <-> lo <= x < lo + Z.of_nat n.
Proof.
  unfold zrange. rewrite in_map_iff. setoid_rewrite in_seq. split.
  - intros [k [<- Hk]]. lia.
  - intro H. exists (Z.to_nat (x - lo)). lia.
Qed.
Lemma nth_error_zrange lo n i : (i < n)%nat -> nth_error (zrange lo n) i = Some (lo + Z.of_nat i).
Proof. intro H. unfold zrange. rewrite nth_error_map, (nth_error_nth' _ 0%nat) by now rewrite seq_length. now rewrite seq_nth. Qed.
Lemma nth_zrange lo n i d : (i < n)%nat -> nth i (zrange lo n) d = lo + Z.of_nat i.
Proof. intro H. apply nth_error_nth. now apply nth_error_zrange. Qed.

Lemma zrange_shift lo n : zrange (lo + 1) n = map (fun i => i + 1) (zrange lo n).
Proof. unfold zrange. rewrite map_map. apply map_ext. intros; lia. Qed.
Lemma zrange_sorted lo n : StronglySorted Z.lt (zrange lo n).
Proof.
  revert lo. induction n as [|n IH]; intros lo; [constructor|]. rewrite zrange_cons. constructor; [apply IH|].
  apply Forall_forall. intros y Hy. apply in_zrange in Hy. lia.
Qed.

Lemma nondecr_map_zrange (f : Z -> Z) lo n : (forall a b, a <= b -> f a <= f b) -> StronglySorted Z.le (map f (zrange lo n)).
Proof. intro Hf. apply (ssorted_map Z.lt); [apply zrange_sorted|]. intros x y _ _ Hxy. apply Hf. lia. Qed.

Lemma nth_map_zrange {B} (f : Z -> B) lo n k d : (k < n)%nat -> nth k (map f (zrange lo n)) d = f (lo + Z.of_nat k).
Proof. intro Hk. apply nth_error_nth. now rewrite nth_error_map, nth_error_zrange. Qed.
Lemma skipn_zrange lo k n : skipn k (zrange lo n) = zrange (lo + Z.of_nat k) (n - k).
Proof.
  revert lo n. induction k as [|k IH]; intros lo n.
  - rewrite Nat.sub_0_r. cbn [skipn]. f_equal. lia.
  - destruct n as [|n]; [reflexivity|]. rewrite zrange_cons. cbn [skipn Nat.sub]. rewrite IH. f_equal. lia.
Qed.
Lemma firstn_zrange lo k n : (k <= n)%nat -> firstn k (zrange lo n) = zrange lo k.
Proof.
  intro H. replace n with (k + (n - k))%nat by lia. rewrite zrange_app, firstn_app, zrange_length, Nat.sub_diag.
  cbn [firstn]. rewrite app_nil_r. apply firstn_all2. now rewrite zrange_length.
Qed.
Lemma firstn_map_zrange {B} (f : Z -> B) i n : (i <= n)%nat -> firstn i (map f (zrange 0 n)) = map f (zrange 0 i).
Proof. intro H. now rewrite firstn_map, firstn_zrange. Qed.
Lemma NoDup_zrange lo n : NoDup (zrange lo n).
Proof. apply (ssorted_nodup Z.lt Z.lt_irrefl), zrange_sorted. Qed.

Lemma slice_past {A} (l : list A) lo hi : hi <= lo -> slice l lo hi = [].
Proof. intros H. unfold slice. now replace (Z.to_nat (hi - lo)) with 0%nat by lia. Qed.
Lemma slice_empty {A} (l : list A) a : slice l a a = [].
Proof. apply slice_past, Z.le_refl. Qed.
Lemma slice_split {A} (l : list A) a b c : 0 <= a <= b -> b <= c -> slice l a c = slice l a b ++ slice l b c.
Proof.
  intros Hab Hbc. unfold slice.
  replace (Z.to_nat (c - a)) with (Z.to_nat (b - a) + Z.to_nat (c - b))%nat by lia.
  rewrite firstn_add, <- skipn_add. do 3 f_equal. lia.
Qed.
Lemma slice_map {A B} (f : A -> B) l lo hi : slice (map f l) lo hi = map f (slice l lo hi).
Proof. unfold slice. now rewrite skipn_map, firstn_map. Qed.
Lemma slice_length {A} (l : list A) lo hi : 0 <= lo -> lo <= hi -> hi <= zlen l -> length (slice l lo hi) = Z.to_nat (hi - lo).
Proof. unfold slice, zlen. intros. rewrite firstn_length, skipn_length. lia. Qed.
Lemma slice_all {A} (l : list A) b : zlen l <= b -> slice l 0 b = l.
Proof. unfold slice, zlen. intro H. cbn [Z.to_nat skipn]. apply firstn_all2. lia. Qed.

Lemma nth_slice {A} (l : list A) lo hi k d : 0 <= lo -> 0 <= k < hi - lo ->
  nth (Z.to_nat k) (slice l lo hi) d = nth (Z.to_nat (lo + k)) l d.
Proof. intros Hlo Hk. unfold slice. rewrite nth_firstn_lt by lia. rewrite nth_skipn. f_equal. lia. Qed.

Lemma skipn_slice {A} (px : list A) a b : 0 <= a <= b ->
  skipn (Z.to_nat a) px = slice px a b ++ skipn (Z.to_nat b) px.
Proof.
  intros H. unfold slice. replace (Z.to_nat b) with (Z.to_nat a + Z.to_nat (b - a))%nat by lia.
  rewrite skipn_add. symmetry. apply firstn_skipn.
Qed.
Lemma slice_app_mid {A} (a m t : list A) : slice (a ++ m ++ t) (zlen a) (zlen a + zlen m) = m.
Proof.
  unfold slice, zlen. rewrite Nat2Z.id, skipn_app, skipn_all, Nat.sub_diag. cbn [skipn app].
  replace (Z.to_nat _) with (length m) by lia. rewrite firstn_app, firstn_all, Nat.sub_diag. apply app_nil_r.
Qed.
Lemma slice_S {A} (p : A) t x y : 0 <= x -> slice (p :: t) (1 + x) (1 + y) = slice t x y.
Proof.
  intros Hx. unfold slice. replace (1 + y - (1 + x)) with (y - x) by lia.
  replace (Z.to_nat (1 + x)) with (S (Z.to_nat x)) by lia. reflexivity.
Qed.
Lemma slice_0_S {A} (p : A) t y : 0 <= y -> slice (p :: t) 0 (1 + y) = p :: slice t 0 y.
Proof.
  intros Hy. unfold slice. replace (Z.to_nat (1 + y - 0)) with (S (Z.to_nat y)) by lia.
  replace (y - 0) with y by lia. reflexivity.
Qed.
Lemma slice_zrange n lo hi : 0 <= lo <= hi -> hi <= Z.of_nat n ->
  slice (zrange 0 n) lo hi = zrange lo (Z.to_nat (hi - lo)).
Proof. intros H1 H2. unfold slice. rewrite skipn_zrange, firstn_zrange by lia. f_equal. lia. Qed.

Lemma ss_left_bounds l x : 0 <= searchsorted_left l x <= zlen l.
Proof.
  induction l as [|y t IH]; unfold zlen in *; cbn [searchsorted_left length]; [lia|].
  destruct (y <? x); lia.
Qed.
Lemma ss_left_mono l x y : x <= y -> searchsorted_left l x <= searchsorted_left l y.
Proof.
  intro H. induction l as [|h t IH]; cbn [searchsorted_left]; [lia|].
  destruct (h <? x) eqn:E1, (h <? y) eqn:E2; try lia. pose proof (ss_left_bounds t y). lia.
Qed.
Lemma ss_left_hd l d : searchsorted_left l (hd d l) = 0.
Proof. destruct l as [|h t]; cbn [searchsorted_left hd]; [reflexivity|]. now rewrite Z.ltb_irrefl. Qed.
(** where the search stops short of the end, the element there is not below [x] *)
Lemma ss_left_nth_ge l x :
  searchsorted_left l x < zlen l -> x <= nth (Z.to_nat (searchsorted_left l x)) l 0.
Proof.
  induction l as [|y t IH]; rewrite ?zlen_cons; cbn [searchsorted_left]; [cbn; lia|].
  destruct (Z.ltb_spec y x); [|cbn; lia]. intro Hlt. pose proof (ss_left_bounds t x).
  replace (Z.to_nat (1 + searchsorted_left t x)) with (S (Z.to_nat (searchsorted_left t x))) by lia.
  apply IH. lia.
Qed.
(** and it stops at or before any index whose element is not below [x] *)
Lemma ss_left_stops l x k :
  (k < length l)%nat -> x <= nth k l 0 -> searchsorted_left l x <= Z.of_nat k.
Proof.
  revert k. induction l as [|y t IH]; intros k Hk Hx; [cbn in Hk; lia|].
  cbn [searchsorted_left]. destruct (y <? x) eqn:E; [|lia].
  destruct k as [|k']; [cbn in Hx; lia|]. cbn in Hk, Hx. specialize (IH k' ltac:(lia) Hx). lia.
Qed.
(** in a sorted list, a member is found at an index that holds it *)
Lemma ss_left_found l x : StronglySorted Z.le l -> In x l ->
  0 <= searchsorted_left l x < zlen l /\ nth (Z.to_nat (searchsorted_left l x)) l 0 = x.
Proof.
  induction l as [|h t IH]; intros Hs Hx; [destruct Hx|]. apply StronglySorted_inv in Hs. destruct Hs as [Ht Hall].
  rewrite zlen_cons. cbn [searchsorted_left]. destruct (Z.ltb_spec h x).
  - destruct Hx as [->|Hx]; [lia|]. destruct (IH Ht Hx) as [Hb Hn]. split; [lia|].
    replace (Z.to_nat (1 + searchsorted_left t x)) with (S (Z.to_nat (searchsorted_left t x))) by lia. exact Hn.
  - pose proof (zlen_nonneg t). split; [lia|]. destruct Hx as [->|Hx]; [reflexivity|].
    rewrite Forall_forall in Hall. apply Hall in Hx. cbn [Z.to_nat nth]. lia.
Qed.

Lemma sumZ_cons x l : sumZ (x :: l) = x + sumZ l.
Proof. reflexivity. Qed.
Lemma sumZ_app a b : sumZ (a ++ b) = sumZ a + sumZ b.
Proof. induction a as [|x a IH]; cbn [app]; rewrite ?sumZ_cons; [reflexivity|lia]. Qed.
Lemma sumZ_perm l l' : Permutation l l' -> sumZ l = sumZ l'.
Proof. induction 1; rewrite ?sumZ_cons; lia. Qed.
Lemma sumZ_nonneg l : Forall (fun n => 0 <= n) l -> 0 <= sumZ l.
Proof. induction 1; rewrite ?sumZ_cons; [reflexivity|lia]. Qed.
Lemma zlen_concat {A} (ls : list (list A)) : zlen (concat ls) = sumZ (map zlen ls).
Proof. induction ls as [|l ls IH]; [reflexivity|]. cbn [concat map]. now rewrite zlen_app, sumZ_cons, IH. Qed.

Lemma enumerate_length {A} (l : list A) : length (enumerate l) = length l.
Proof. unfold enumerate. rewrite combine_length, zrange_length. apply Nat.min_id. Qed.
Lemma map_snd_enumerate {A} (l : list A) : map snd (enumerate l) = l.
Proof.
  unfold enumerate. generalize 0. induction l as [|x l IH]; intro lo; [reflexivity|].
  cbn [length]. rewrite zrange_cons. cbn [combine map snd]. now rewrite IH.
Qed.
Lemma nth_error_enumerate {A} (l : list A) i x : nth_error l i = Some x -> nth_error (enumerate l) i = Some (Z.of_nat i, x).
Proof.
  intro H. apply nth_error_combine; [|exact H]. rewrite nth_error_zrange; [reflexivity|]. apply nth_error_Some. congruence.
Qed.

Lemma in_enumerate {A} (l : list A) j x :
  In (j, x) (enumerate l) <-> exists k, j = Z.of_nat k /\ nth_error l k = Some x.
Proof.
  split.
  - intros [k Hk]%In_nth_error. exists k.
    destruct (nth_error l k) as [y|] eqn:E.
    + rewrite (nth_error_enumerate l k y E) in Hk. now injection Hk as <- <-.
    + apply nth_error_None in E. rewrite <- enumerate_length in E. apply nth_error_None in E. congruence.
  - intros (k & -> & Hk). eapply nth_error_In, nth_error_enumerate, Hk.
Qed.

Lemma keqb_eq a b : keqb a b = true <-> a = b.
Proof.
  unfold keqb. destruct a as [a1 a2], b as [b1 b2]; cbn [fst snd]. rewrite andb_true_iff, !Z.eqb_eq.
  split; [intros [-> ->]; reflexivity|intros [= -> ->]; now split].
Qed.
Lemma keqb_refl a : keqb a a = true.
Proof. now apply keqb_eq. Qed.
Lemma keqb_neq a b : keqb a b = false <-> a <> b.
Proof. rewrite <- keqb_eq. now destruct (keqb a b). Qed.

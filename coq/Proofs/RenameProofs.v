(** Proofs for C18: _rename_chroms rewrites exactly two links (chroms/name, bins/chrom) of the
    collection; every other object and link is untouched; names are substituted in order; bin
    codes are kept; lookups by the new name equal the old lookups by the old name; chains compose. *)
From Cooler Require Import Model.Rename Proofs.H5Proofs.
From Coq Require Import Lia.

Lemma put_ds_other_file : forall w f t n d f', f <> f' -> get_store (put_ds w f t n d) f' = get_store w f'.
Proof.
  intros w f t n d f' N. unfold put_ds. destruct (obj_at w f t) as [[a ls|?]|]; auto.
  unfold alloc, set_obj. destruct (get_store w f) eqn:Es; simpl; auto.
  - rewrite get_set_same. rewrite get_set_other by auto. rewrite get_set_other by auto. auto.
  - rewrite Es. auto.
Qed.

(** put_ds allocates the new dataset and relinks the name in the group; no other object changes *)
Lemma put_ds_self : forall w f t n d a ls, obj_at w f t = Some (Group a ls) ->
  exists o, obj_at (put_ds w f t n d) f t = Some (Group a (ins_sorted n (Hard o) (remove_key n ls))) /\
            obj_at (put_ds w f t n d) f o = Some (Dataset d).
Proof.
  intros w f t n d a ls Et. unfold put_ds. rewrite Et. destruct (alloc w f (Dataset d)) as [w1 o] eqn:Ea.
  pose proof (alloc_old _ _ _ _ _ _ _ _ Ea Et) as Et1.
  exists o. split; [eapply set_obj_at; eauto|]. rewrite set_obj_other; [eapply alloc_at; eauto using obj_exists|].
  right. intros ->. rewrite (alloc_fresh _ _ _ _ _ Ea) in Et. discriminate.
Qed.

Lemma put_ds_obj_other : forall w f t n d a ls o,
  obj_at w f t = Some (Group a ls) -> o <> t -> (exists x, obj_at w f o = Some x) ->
  obj_at (put_ds w f t n d) f o = obj_at w f o.
Proof.
  intros w f t n d a ls o Et N [x Ex]. unfold put_ds. rewrite Et. destruct (alloc w f (Dataset d)) as [w1 o1] eqn:Ea.
  rewrite set_obj_other by auto. rewrite Ex. eapply alloc_old; eauto.
Qed.

Lemma put_ds_read : forall w f t n d a ls,
  obj_at w f t = Some (Group a ls) -> ds_at (put_ds w f t n d) f t n = Some d.
Proof.
  intros w f t n d a ls Et. destruct (put_ds_self w f t n d a ls Et) as (o & H1 & H2).
  unfold ds_at, child, lookup_link. rewrite H1, assoc_ins_same, H2. reflexivity.
Qed.

Lemma put_ds_lookup_other : forall w f t n d a ls t' n',
  obj_at w f t = Some (Group a ls) -> (t' <> t \/ n' <> n) -> (exists x, obj_at w f t' = Some x) ->
  lookup_link (put_ds w f t n d) f t' n' = lookup_link w f t' n'.
Proof.
  intros w f t n d a ls t' n' Et Hne Hx. unfold lookup_link.
  destruct (Nat.eq_dec t' t) as [->|N]; [|now erewrite put_ds_obj_other by eauto].
  destruct (put_ds_self w f t n d a ls Et) as (o & H1 & _). rewrite H1, Et.
  assert (n <> n') by (destruct Hne; congruence).
  rewrite assoc_ins_other by auto. now apply assoc_remove_other.
Qed.

(** what _rename_chroms relies on and leaves in place: the collection g has a chroms table tc and a bins
    table tb, three distinct groups, with chroms/name = [names] and a bins/chrom column that is not strings *)
Record shape (w : world) (f : fid) (g tc tb : nat) (names : list string) : Prop := {
  sh_chroms : child w f g "chroms"%string = Some tc;
  sh_bins : child w f g "bins"%string = Some tb;
  sh_tc : exists a ls, obj_at w f tc = Some (Group a ls);
  sh_tb : exists a ls, obj_at w f tb = Some (Group a ls);
  sh_ne1 : tc <> g; sh_ne2 : tb <> g; sh_ne3 : tc <> tb;
  sh_names : ds_at w f tc "name"%string = Some (PStrs names);
  sh_codes : exists d, ds_at w f tb "chrom"%string = Some d /\ (forall l, d <> PStrs l)
}.

Lemma child_obj : forall w f g n o, child w f g n = Some o -> exists x, obj_at w f g = Some x.
Proof.
  unfold child, lookup_link; intros. destruct (obj_at w f g); eauto. discriminate.
Qed.

Lemma ds_at_put_kept : forall w f t n d a ls t' n' x,
  obj_at w f t = Some (Group a ls) -> (t' <> t \/ n' <> n) ->
  ds_at w f t' n' = Some x -> ds_at (put_ds w f t n d) f t' n' = Some x.
Proof.
  intros w f t n d a ls t' n' x Et Hne H. unfold ds_at, child in *.
  destruct (lookup_link w f t' n') as [[o| |]|] eqn:El; try discriminate.
  erewrite put_ds_lookup_other; eauto using lookup_obj. rewrite El.
  destruct (obj_at w f o) as [[|y]|] eqn:Eo; try discriminate.
  (* old dataset objects are never modified: a replaced one stays behind as unreachable garbage *)
  erewrite put_ds_obj_other, Eo; eauto. intros ->. congruence.
Qed.

Lemma child_put_kept : forall w f t n d a ls t' n' o,
  obj_at w f t = Some (Group a ls) -> (t' <> t \/ n' <> n) ->
  child w f t' n' = Some o -> child (put_ds w f t n d) f t' n' = Some o.
Proof.
  intros w f t n d a ls t' n' o Et Hne H. unfold child in *.
  destruct (lookup_link w f t' n') as [[o'| |]|] eqn:El; try discriminate.
  erewrite put_ds_lookup_other; eauto using lookup_obj. now rewrite El.
Qed.

Lemma put_ds_group_kept : forall w f t n d a ls t',
  obj_at w f t = Some (Group a ls) -> (exists a' ls', obj_at w f t' = Some (Group a' ls')) ->
  exists a' ls', obj_at (put_ds w f t n d) f t' = Some (Group a' ls').
Proof.
  intros w f t n d a ls t' Et (a' & ls' & E').
  destruct (Nat.eq_dec t' t) as [->|N].
  - destruct (put_ds_self w f t n d a ls Et) as (o & H1 & _). eauto.
  - erewrite put_ds_obj_other; eauto.
Qed.

Lemma shape_chromnames : forall w f g tc tb names, shape w f g tc tb names -> chromnames w f g = names.
Proof. intros w f g tc tb names H. unfold chromnames. now rewrite (sh_chroms _ _ _ _ _ _ H), (sh_names _ _ _ _ _ _ H). Qed.

(** rewriting a column of the chroms or the bins table keeps the structure of the collection; what the two
    distinguished columns then hold is for the caller to say *)
Lemma shape_put : forall w f g tc tb names t n d names',
  shape w f g tc tb names -> t = tc \/ t = tb ->
  ds_at (put_ds w f t n d) f tc "name"%string = Some (PStrs names') ->
  (exists d', ds_at (put_ds w f t n d) f tb "chrom"%string = Some d' /\ forall l, d' <> PStrs l) ->
  shape (put_ds w f t n d) f g tc tb names'.
Proof.
  intros w f g tc tb names t n d names' H Ht Hn Hc. destruct H.
  assert (exists a ls, obj_at w f t = Some (Group a ls)) as (a & ls & Et) by (destruct Ht; subst; auto).
  assert (g <> t) as Ng by (destruct Ht; subst; auto).
  constructor; auto; try (eapply child_put_kept; eauto); eapply put_ds_group_kept; eauto.
Qed.

(** what _rename_chroms does: chroms/name is rewritten, bins/chrom too when it is an enum; the collection keeps
    its shape, every other readable column and every link of the collection group is as before *)
Lemma rename_spec : forall w f g tc tb names m w',
  shape w f g tc tb names -> rename_chroms w f g m = Some w' ->
  let new := map (subst m) names in
  shape w' f g tc tb new /\
  (forall t col x, ~ (t = tc /\ col = "name"%string) -> ~ (t = tb /\ col = "chrom"%string) ->
     ds_at w f t col = Some x -> ds_at w' f t col = Some x) /\
  (forall n, lookup_link w' f g n = lookup_link w f g n) /\
  (forall d, ds_at w f tb "chrom"%string = Some d ->
     ds_at w' f tb "chrom"%string = Some (match d with PEnum _ codes => PEnum new codes | _ => d end)).
Proof.
  intros w f g tc tb names m w' H R new. unfold rename_chroms in R.
  rewrite (sh_chroms _ _ _ _ _ _ H), (sh_bins _ _ _ _ _ _ H), (sh_names _ _ _ _ _ _ H) in R. fold new in R.
  set (w1 := put_ds w f tc "name"%string (PStrs new)) in *.
  destruct (sh_tc _ _ _ _ _ _ H) as (a & ls & Etc). destruct (sh_codes _ _ _ _ _ _ H) as (d & Ed & Hd).
  pose proof (sh_ne1 _ _ _ _ _ _ H) as N1. pose proof (sh_ne2 _ _ _ _ _ _ H) as N2. pose proof (sh_ne3 _ _ _ _ _ _ H) as N3.
  assert (forall t col x, ~ (t = tc /\ col = "name"%string) -> ds_at w f t col = Some x -> ds_at w1 f t col = Some x) as F1.
  { intros t col x N. apply (ds_at_put_kept _ _ _ _ _ _ _ t col x Etc).
    destruct (Nat.eq_dec t tc); [right; intro; apply N; auto|left; auto]. }
  assert (ds_at w1 f tb "chrom"%string = Some d) as Ed1 by (apply F1; auto; intros [E _]; auto).
  assert (shape w1 f g tc tb new) as H1 by (apply (shape_put _ _ _ _ _ names); eauto using put_ds_read).
  assert (forall n, lookup_link w1 f g n = lookup_link w f g n) as L1.
  { intro n. destruct (child_obj _ _ _ _ _ (sh_chroms _ _ _ _ _ _ H)). apply (put_ds_lookup_other _ _ _ _ _ _ _ g n Etc); eauto. }
  rewrite Ed1 in R.
  destruct d as [l|l|hdr codes]; [|exfalso; eapply Hd; eauto|]; injection R as <-.
  - split; [exact H1|]. split; [intros; apply F1; auto|]. split; [exact L1|].
    intros d0 E0. rewrite Ed in E0. injection E0 as <-. exact Ed1.
  - (* the enum header is rebuilt over the stored codes *)
    destruct (sh_tb _ _ _ _ _ _ H1) as (a2 & ls2 & Etb).
    split; [|split; [|split]].
    + apply (shape_put _ _ _ _ _ new); auto.
      * apply (ds_at_put_kept _ _ _ _ _ _ _ _ _ _ Etb); [auto|exact (sh_names _ _ _ _ _ _ H1)].
      * eexists. split; [eapply put_ds_read; eauto|intros; discriminate].
    + intros t col x Nn Nc Hx. apply (ds_at_put_kept _ _ _ _ _ _ _ t col x Etb); [|apply F1; auto].
      destruct (Nat.eq_dec t tb); [right; intro; apply Nc; auto|left; auto].
    + intro n. destruct (child_obj _ _ _ _ _ (sh_chroms _ _ _ _ _ _ H1)).
      rewrite (put_ds_lookup_other _ _ _ _ _ _ _ g n Etb); eauto.
    + intros d0 E0. rewrite Ed in E0. injection E0 as <-. eapply put_ds_read; eauto.
Qed.

(** C18 central theorem: names are substituted in the original order and the collection keeps its shape *)
Theorem rename_names : forall w f g tc tb names m w',
  shape w f g tc tb names -> rename_chroms w f g m = Some w' ->
  shape w' f g tc tb (map (subst m) names) /\ chromnames w' f g = map (subst m) (chromnames w f g).
Proof.
  intros w f g tc tb names m w' H R. destruct (rename_spec _ _ _ _ _ _ _ _ H R) as (H' & _).
  split; auto. now rewrite (shape_chromnames _ _ _ _ _ _ H'), (shape_chromnames _ _ _ _ _ _ H).
Qed.

(** frame: every column that could be read, other than chroms/name and bins/chrom, is the same dataset
    with the same payload afterwards (lengths, starts, ends, extra columns, pixels, indexes) *)
Theorem rename_frame : forall w f g tc tb names m w' t col x,
  shape w f g tc tb names -> rename_chroms w f g m = Some w' ->
  ~ (t = tc /\ col = "name"%string) -> ~ (t = tb /\ col = "chrom"%string) ->
  ds_at w f t col = Some x -> ds_at w' f t col = Some x.
Proof. intros w f g tc tb names m w' t col x H R. destruct (rename_spec _ _ _ _ _ _ _ _ H R) as (_ & F & _). apply F. Qed.

Theorem rename_tables_kept : forall w f g tc tb names m w' tbl o,
  shape w f g tc tb names -> rename_chroms w f g m = Some w' ->
  child w f g tbl = Some o -> child w' f g tbl = Some o.
Proof.
  intros w f g tc tb names m w' tbl o H R. destruct (rename_spec _ _ _ _ _ _ _ _ H R) as (_ & _ & L & _).
  unfold child. now rewrite L.
Qed.

Corollary rename_column_kept : forall w f g tc tb names m w' tbl col,
  shape w f g tc tb names -> rename_chroms w f g m = Some w' ->
  (forall t, child w f g tbl = Some t -> ~ (t = tc /\ col = "name"%string) /\ ~ (t = tb /\ col = "chrom"%string)) ->
  (exists d, column w f g tbl col = Some d) -> column w' f g tbl col = column w f g tbl col.
Proof.
  intros w f g tc tb names m w' tbl col H R Hne [d Ed]. rewrite Ed. unfold column in *.
  destruct (child w f g tbl) as [t|] eqn:Et; try discriminate.
  rewrite (rename_tables_kept _ _ _ _ _ _ _ _ _ _ H R Et). destruct (Hne t eq_refl). eapply rename_frame; eauto.
Qed.

Theorem rename_codes : forall w f g tc tb names m w',
  shape w f g tc tb names -> rename_chroms w f g m = Some w' ->
  bin_codes w' f g = bin_codes w f g /\
  (forall hdr codes, ds_at w f tb "chrom"%string = Some (PEnum hdr codes) ->
                     ds_at w' f tb "chrom"%string = Some (PEnum (map (subst m) names) codes)) /\
  (forall codes, ds_at w f tb "chrom"%string = Some (PInts codes) ->
                 ds_at w' f tb "chrom"%string = Some (PInts codes)).
Proof.
  intros w f g tc tb names m w' H R. destruct (rename_spec _ _ _ _ _ _ _ _ H R) as (H' & _ & _ & C).
  split; [|split; intros; now rewrite (C _ H0)].
  unfold bin_codes. rewrite (sh_bins _ _ _ _ _ _ H), (sh_bins _ _ _ _ _ _ H').
  destruct (sh_codes _ _ _ _ _ _ H) as (d & Ed & _). rewrite (C _ Ed), Ed. now destruct d.
Qed.

Lemma chromid_from_none : forall names i x, ~ In x names -> chromid_from names i x = None.
Proof.
  induction names as [|n r IH]; simpl; intros i x Hn; auto.
  rewrite IH by tauto. destruct (S.eqb n x) eqn:E; auto. apply S.eqb_eq in E. tauto.
Qed.

Lemma chromid_from_some : forall names i x, In x names -> chromid_from names i x <> None.
Proof.
  induction names as [|n r IH]; simpl; intros i x Hin; [tauto|].
  destruct (chromid_from r (i + 1) x) eqn:E; [discriminate|].
  destruct Hin as [->|Hin]; [rewrite S.eqb_refl; discriminate|].
  exfalso. eapply IH; eauto.
Qed.

(** dict(zip(new_names, range(n)))[s x] = dict(zip(names, range(n)))[x] when the new names are distinct *)
Lemma chromid_from_subst : forall (s : string -> string) names i x,
  NoDup (map s names) -> In x names ->
  chromid_from (map s names) i (s x) = chromid_from names i x.
Proof.
  induction names as [|n r IH]; simpl; intros i x Hnd Hin; [tauto|].
  inversion Hnd as [|? ? Hnot Hnd']; subst.
  destruct (in_dec S.string_dec x r) as [Hr|Hr].
  - rewrite IH by auto. destruct (chromid_from r (i + 1) x) eqn:E; auto.
    exfalso. eapply chromid_from_some; eauto.
  - destruct Hin as [->|Hin]; [|tauto].
    rewrite (chromid_from_none r (i + 1) x Hr).
    rewrite chromid_from_none by exact Hnot.
    now rewrite !S.eqb_refl.
Qed.

Theorem rename_chromid : forall m names x,
  NoDup (map (subst m) names) -> In x names ->
  chromid (map (subst m) names) (subst m x) = chromid names x.
Proof. intros. unfold chromid. now apply chromid_from_subst. Qed.

(** Cooler.extent by the new name = extent by the old name before *)
Theorem rename_extent : forall w f g tc tb names m w' x,
  shape w f g tc tb names -> rename_chroms w f g m = Some w' ->
  NoDup (map (subst m) names) -> In x names ->
  (forall ti, child w f g "indexes"%string = Some ti -> ti <> tc /\ ti <> tb) ->
  (forall ti, child w f g "indexes"%string = Some ti -> exists d, ds_at w f ti "chrom_offset"%string = Some d) ->
  extent w' f g (subst m x) = extent w f g x.
Proof.
  intros w f g tc tb names m w' x H R Hnd Hin Hti Hoff.
  destruct (rename_names _ _ _ _ _ _ _ _ H R) as [H' Hn].
  unfold extent. rewrite Hn, (shape_chromnames _ _ _ _ _ _ H).
  rewrite rename_chromid by auto.
  destruct (chromid names x); auto.
  destruct (child w f g "indexes"%string) as [ti|] eqn:Ei.
  - rewrite (rename_tables_kept _ _ _ _ _ _ _ _ _ _ H R Ei).
    destruct (Hoff ti eq_refl) as (d & Ed). destruct (Hti ti eq_refl) as [N1 N2].
    rewrite (rename_frame _ _ _ _ _ _ _ _ ti "chrom_offset"%string d H R) by (auto; intros [? ?]; congruence).
    now rewrite Ed.
  - destruct (child w' f g "indexes"%string) as [ti'|] eqn:Ei'; auto.
    unfold child in Ei, Ei'. destruct (rename_spec _ _ _ _ _ _ _ _ H R) as (_ & _ & L & _). rewrite L in Ei'. congruence.
Qed.

Lemma nth_name_map : forall s names c, 0 <= c < Z.of_nat (List.length names) ->
  nth_name (map s names) c = s (nth_name names c).
Proof.
  intros s names c Hc. unfold nth_name.
  rewrite nth_indep with (d' := s ""%string) by (rewrite map_length; lia).
  apply map_nth.
Qed.

(** bin labels (api.bins()["chrom"]): substituted, for both encodings, when the stored codes are valid
    and (enum encoding) the header listed the names *)
Theorem rename_labels : forall w f g tc tb names m w',
  shape w f g tc tb names -> rename_chroms w f g m = Some w' ->
  Forall (fun c => 0 <= c < Z.of_nat (List.length names)) (bin_codes w f g) ->
  (forall hdr codes, ds_at w f tb "chrom"%string = Some (PEnum hdr codes) -> hdr = names) ->
  bin_labels w' f g = map (subst m) (bin_labels w f g).
Proof.
  intros w f g tc tb names m w' H R Hrange Hhdr.
  destruct (rename_spec _ _ _ _ _ _ _ _ H R) as (H' & _ & _ & C).
  unfold bin_labels. unfold bin_codes in Hrange. rewrite (sh_bins _ _ _ _ _ _ H) in *. rewrite (sh_bins _ _ _ _ _ _ H').
  destruct (sh_codes _ _ _ _ _ _ H) as (d & Ed & Hd). rewrite (C _ Ed). rewrite Ed in *.
  (* both encodings: the labels are the names, old or new, at the stored codes *)
  destruct d as [codes|l|hdr codes]; [|exfalso; eapply Hd; eauto|rewrite (Hhdr _ _ eq_refl)];
    simpl in Hrange |- *; rewrite ?(shape_chromnames _ _ _ _ _ _ H'), ?(shape_chromnames _ _ _ _ _ _ H), map_map;
    apply map_ext_in; intros c Hc; apply nth_name_map; rewrite Forall_forall in Hrange; auto.
Qed.

Theorem rename_chain_names : forall ms w f g tc tb names w',
  shape w f g tc tb names -> rename_chain w f g ms = Some w' ->
  let final := fold_left (fun ns m => map (subst m) ns) ms names in
  shape w' f g tc tb final /\ chromnames w' f g = final.
Proof.
  induction ms as [|m r IH]; simpl; intros w f g tc tb names w' H R.
  - inversion R; subst. split; auto. eapply shape_chromnames; eauto.
  - destruct (rename_chroms w f g m) as [w1|] eqn:E1; try discriminate.
    destruct (rename_names _ _ _ _ _ _ _ _ H E1) as [H1 _].
    eapply IH; eauto.
Qed.

Corollary rename_twice : forall w f g tc tb names m1 m2 w1 w2,
  shape w f g tc tb names -> rename_chroms w f g m1 = Some w1 -> rename_chroms w1 f g m2 = Some w2 ->
  chromnames w2 f g = map (fun x => subst m2 (subst m1 x)) names.
Proof.
  intros w f g tc tb names m1 m2 w1 w2 H R1 R2.
  destruct (rename_chain_names [m1; m2] w f g tc tb names w2 H) as [_ K].
  - simpl. now rewrite R1, R2.
  - rewrite K. simpl. apply map_map.
Qed.

(** a matrix / bins query addressed by the NEW name on the renamed collection returns what the query by the
    OLD name returned on the original: same extent (rename_extent) over untouched columns (rename_frame) *)
Theorem rename_fetch : forall w f g tc tb names m w' x,
  shape w f g tc tb names -> rename_chroms w f g m = Some w' ->
  NoDup (map (subst m) names) -> In x names ->
  (forall ti, child w f g "indexes"%string = Some ti -> ti <> tc /\ ti <> tb) ->
  (forall ti, child w f g "indexes"%string = Some ti -> exists d, ds_at w f ti "chrom_offset"%string = Some d) ->
  (forall tp, child w f g "pixels"%string = Some tp -> tp <> tc /\ tp <> tb) ->
  (forall col, In col ["bin1_id"; "bin2_id"; "count"]%string -> exists d, column w f g "pixels"%string col = Some d) ->
  (forall col, In col ["start"; "end"]%string -> exists d, column w f g "bins"%string col = Some d) ->
  fetch_pixels w' f g (subst m x) = fetch_pixels w f g x /\
  fetch_bin_coords w' f g (subst m x) = fetch_bin_coords w f g x.
Proof.
  intros w f g tc tb names m w' x H R Hnd Hin Hti Hoff Htp Hpx Hbn.
  assert (forall col, In col ["bin1_id"; "bin2_id"; "count"]%string ->
            column w' f g "pixels"%string col = column w f g "pixels"%string col) as Kp.
  { intros col Hc. apply (rename_column_kept _ _ _ _ _ _ _ _ _ _ H R); auto.
    intros t Ht. destruct (Htp t Ht). split; intros [E _]; congruence. }
  assert (forall col, In col ["start"; "end"]%string ->
            column w' f g "bins"%string col = column w f g "bins"%string col) as Kb.
  { intros col Hc. apply (rename_column_kept _ _ _ _ _ _ _ _ _ _ H R); auto.
    intros t Ht. rewrite (sh_bins _ _ _ _ _ _ H) in Ht. injection Ht as <-.
    split; intros [E1 E2]; [exact (sh_ne3 _ _ _ _ _ _ H (eq_sym E1))|].
    subst col. destruct Hc as [E|[E|[]]]; discriminate. }
  unfold fetch_pixels, fetch_bin_coords.
  rewrite (rename_extent _ _ _ _ _ _ _ _ _ H R Hnd Hin Hti Hoff).
  rewrite (Kp "bin1_id"%string), (Kp "bin2_id"%string), (Kp "count"%string), (Kb "start"%string), (Kb "end"%string)
    by (simpl; auto).
  auto.
Qed.

(** a three-chromosome collection and a swap of two names, for the evaluated statements of C18 *)
Definition spec18 : cspec :=
  mkSpec [("chroms"%string, Table [("name"%string, Fresh (PStrs ["chr1"; "chr2"; "chrX"]%string));
                                   ("length"%string, Fresh (PInts [25; 20; 7]))]);
          ("bins"%string, Table [("chrom"%string, Fresh (PEnum ["chr1"; "chr2"; "chrX"]%string [0; 0; 0; 1; 1; 2]));
                                 ("start"%string, Fresh (PInts [0; 10; 20; 0; 10; 0]));
                                 ("end"%string, Fresh (PInts [10; 20; 25; 10; 20; 7]))]);
          ("pixels"%string, Table [("bin1_id"%string, Fresh (PInts [0; 1])); ("bin2_id"%string, Fresh (PInts [4; 2]));
                                   ("count"%string, Fresh (PInts [1; 5]))]);
          ("indexes"%string, Table [("chrom_offset"%string, Fresh (PInts [0; 3; 5; 6]));
                                    ("bin1_offset"%string, Fresh (PInts [0; 1; 2; 2; 2; 2; 2]))])]
         [("format"%string, AStr MAGIC)].
Definition w18 : world := snd (create world0 FA [] false spec18).
Definition swap12 : list (string * string) := [("chr1", "chr2"); ("chr2", "chr1")]%string.

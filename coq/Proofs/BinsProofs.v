(** Floor / ceiling division facts ([cdiv]), tilings ([Tiled], [ValidBlocks]) and the proofs about binnify / get_binsize /
    get_chromsizes (C20); exports Proofs/BaseProofs.v.  *)
From Cooler Require Import Model.Bins.
From Cooler Require Export Proofs.BaseProofs.
From Coq Require Import ZifyBool.

(** for b > 0 each quotient is told by one linear comparison; everything else about
    [/] and [cdiv] below is read off these two *)
Lemma div_lt_iff a b k : 0 < b -> (a / b < k <-> a < k * b).
Proof.
  intros Hb. pose proof (Z.div_lt_upper_bound a b k Hb). pose proof (Z.div_le_lower_bound a b k Hb). lia.
Qed.

Lemma cdiv_le_iff a b k : 0 < b -> (cdiv a b <= k <-> a <= k * b).
Proof. intros Hb. unfold cdiv. pose proof (div_lt_iff (a + b - 1) b (k + 1) Hb). lia. Qed.

Lemma cdiv_bracket a b : 0 < b -> (cdiv a b - 1) * b < a <= cdiv a b * b.
Proof.
  intros Hb. pose proof (cdiv_le_iff a b (cdiv a b) Hb). pose proof (cdiv_le_iff a b (cdiv a b - 1) Hb). lia.
Qed.

Lemma cdiv_eq a b q : 0 < b -> (q - 1) * b < a <= q * b -> cdiv a b = q.
Proof. intros Hb H. pose proof (cdiv_le_iff a b q Hb). pose proof (cdiv_le_iff a b (q - 1) Hb). lia. Qed.

Lemma cdiv_pos a b : 0 < a -> 0 < b -> 0 < cdiv a b.
Proof. intros Ha Hb. pose proof (cdiv_le_iff a b 0 Hb). lia. Qed.

Lemma cdiv_nonneg a b : 0 <= a -> 0 < b -> 0 <= cdiv a b.
Proof. intros. apply Z.div_pos; lia. Qed.

Lemma cdiv_mono a a' b : 0 < b -> a <= a' -> cdiv a b <= cdiv a' b.
Proof. intros. apply Z.div_le_mono; lia. Qed.

Lemma div_le_cdiv a b : 0 < b -> a / b <= cdiv a b.
Proof. intros. apply Z.div_le_mono; lia. Qed.

Lemma div_lt_cdiv a a' b : 0 < b -> a < a' -> a / b < cdiv a' b.
Proof.
  intros Hb H. pose proof (cdiv_le_iff a' b (a / b) Hb). pose proof (div_lt_iff a b (a / b) Hb). lia.
Qed.

Lemma cdiv_succ a b : 0 < b -> cdiv (a + 1) b = a / b + 1.
Proof. intros. unfold cdiv. replace (a + 1 + b - 1) with (a + 1 * b) by lia. apply Z.div_add. lia. Qed.

Lemma cdiv_shift n c : 1 <= c -> cdiv (n + c) c = cdiv n c + 1.
Proof. intros Hc. unfold cdiv. replace (n + c + c - 1) with ((n + c - 1) + 1 * c) by lia. rewrite Z.div_add; lia. Qed.

Lemma cdiv_cdiv n k1 k2 : 0 <= n -> 1 <= k1 -> 1 <= k2 -> cdiv (cdiv n k1) k2 = cdiv n (k1 * k2).
Proof.
  intros Hn H1 H2. unfold cdiv.
  replace (n + k1 * k2 - 1) with ((n - 1) + k2 * k1) by lia.
  rewrite <- Z.div_div by lia. rewrite Z.div_add by lia.
  replace (n + k1 - 1) with ((n - 1) + 1 * k1) by lia. rewrite Z.div_add by lia.
  f_equal. lia.
Qed.

Lemma set_last_snoc l x v : set_last (l ++ [x]) v = l ++ [v].
Proof.
  unfold set_last. destruct (l ++ [x]) eqn:E; [now destruct l|]. now rewrite <- E, removelast_last.
Qed.

(** the consecutive pairs of the edge list f lo, ..., f (lo + m), v *)
Lemma edges_pairs (f : Z -> Z) lo m v :
  let edges := set_last (map f (zrange lo (S (S m)))) v in
  combine (removelast edges) (tl edges)
  = map (fun k => (f k, f (k + 1))) (zrange lo m) ++ [(f (lo + Z.of_nat m), v)].
Proof.
  cbn zeta. rewrite (zrange_snoc lo (S m)), map_app. cbn [map]. rewrite set_last_snoc, removelast_last.
  replace (tl (map f (zrange lo (S m)) ++ [v])) with (map f (zrange (lo + 1) m) ++ [v])
    by now rewrite zrange_cons.
  rewrite (zrange_snoc lo m), map_app. cbn [map].
  rewrite combine_snoc by now rewrite !map_length, !zrange_length.
  now rewrite zrange_shift, map_map, combine_map_both.
Qed.

Theorem binnify_chrom_spec c L b :
  1 <= L -> 1 <= b -> binnify_chrom c L b = ideal_chrom c L b.
Proof.
  intros HL Hb. unfold binnify_chrom, ideal_chrom.
  pose proof (cdiv_pos L b) as Hpos. pose proof (cdiv_bracket L b) as [Hlo Hhi]; [lia|].
  destruct (Z.to_nat (cdiv L b)) as [|m] eqn:Hn; [lia|].
  replace (cdiv L b) with (Z.of_nat m + 1) in Hlo, Hhi by lia.
  rewrite edges_pairs, map_app, map_map, zrange_snoc, map_app. cbn [map fst snd]. unfold ideal_bin. f_equal.
  - (* the bins before the last end at a multiple of b that is at most m * b < L *)
    apply map_ext_in. intros k Hk. apply in_zrange in Hk. rewrite Z.min_l; [reflexivity|].
    apply Z.le_trans with (Z.of_nat m * b); [apply Z.mul_le_mono_nonneg_r|]; lia.
  - rewrite Z.min_r by lia. reflexivity.
Qed.

(** Tiled c s l : all bins of l carry chromosome c, the first starts at s, each
    next bin starts where the previous ended, no bin is empty *)
Inductive Tiled (c : Z) : Z -> list bin -> Prop :=
| Tiled_nil s : Tiled c s []
| Tiled_cons s e l : s < e -> Tiled c e l -> Tiled c s ((c, s, e) :: l).

Lemma tiled_b_spec c s l : tiled_b c s l = true <-> Tiled c s l.
Proof.
  revert s. induction l as [|[[c' s'] e] l IH]; intros s; cbn [tiled_b].
  - split; auto using Tiled_nil.
  - unfold bchrom, bstart, bend; cbn [fst snd]. rewrite !andb_true_iff, !Z.eqb_eq, Z.ltb_lt, IH. split.
    + intros [[[-> ->] Hse] HT]. now constructor.
    + intros H. inversion H; subst. auto.
Qed.

(** the end of a chromosome's last bin; the default bin is met only on an empty block, which [ValidBlocks] excludes *)
Definition chrom_end (blk : list bin) : Z := bend (last blk (0, 0, 0)).

(** consecutive bins given by their number: each is non-empty and starts where the one before ends *)
Lemma tiled_map c (g : Z -> bin) : forall n lo,
  (forall q, lo <= q < lo + Z.of_nat n ->
     bchrom (g q) = c /\ bstart (g q) < bend (g q) /\ (lo < q -> bstart (g q) = bend (g (q - 1)))) ->
  Tiled c (bstart (g lo)) (map g (zrange lo n)).
Proof.
  induction n as [|n IH]; intros lo H; [constructor|]. rewrite zrange_cons. cbn [map].
  destruct (H lo ltac:(lia)) as (A & B & _). destruct n as [|n].
  - destruct (g lo) as [[c0 s0] e0]. cbn in *. subst c0. now repeat constructor.
  - specialize (IH (lo + 1)). destruct (H (lo + 1) ltac:(lia)) as (_ & _ & D).
    rewrite D, Z.add_simpl_r in IH by lia.
    destruct (g lo) as [[c0 s0] e0]. cbn in A, B, IH |- *. subst c0. constructor; [exact B|].
    apply IH. intros q Hq. destruct (H q ltac:(lia)) as (A' & B' & D'). repeat split; auto. intros. apply D'. lia.
Qed.

Theorem ideal_chrom_tiled c L b : 1 <= L -> 1 <= b -> Tiled c 0 (ideal_chrom c L b).
Proof.
  intros HL Hb. unfold ideal_chrom. pose proof (cdiv_pos L b). pose proof (cdiv_bracket L b).
  apply (tiled_map c (ideal_bin c L b) _ 0). intros q Hq. unfold ideal_bin, bchrom, bstart, bend; cbn [fst snd].
  (* every bin starts below L *)
  assert (q * b <= (cdiv L b - 1) * b) by (apply Z.mul_le_mono_nonneg_r; lia). rewrite Z.sub_add. lia.
Qed.

Lemma ideal_chrom_nonempty c L b : 1 <= L -> 1 <= b -> ideal_chrom c L b <> [].
Proof.
  intros HL Hb. unfold ideal_chrom. pose proof (cdiv_pos L b).
  destruct (Z.to_nat (cdiv L b)) eqn:E; [lia|]. rewrite zrange_cons. discriminate.
Qed.

Lemma ideal_chrom_end c L b : 1 <= L -> 1 <= b -> chrom_end (ideal_chrom c L b) = L.
Proof.
  intros HL Hb. unfold chrom_end, ideal_chrom. pose proof (cdiv_pos L b). pose proof (cdiv_bracket L b).
  destruct (Z.to_nat (cdiv L b)) eqn:E; [lia|].
  rewrite zrange_snoc, map_app. cbn [map]. rewrite last_last. unfold ideal_bin, bend; cbn [snd].
  replace (0 + Z.of_nat n + 1) with (cdiv L b) by lia. lia.
Qed.

Lemma tiled_end_gt c s blk : Tiled c s blk -> blk <> [] -> s < chrom_end blk.
Proof.
  induction 1 as [|s e l Hse HT IH]; intros Hne; [congruence|].
  destruct l as [|y l]; [exact Hse|].
  change (chrom_end (_ :: y :: l)) with (chrom_end (y :: l)). specialize (IH ltac:(discriminate)). lia.
Qed.

Lemma tiled_start_ge c s blk : Tiled c s blk -> forall x, In x blk -> s <= bstart x.
Proof.
  induction 1 as [|s e l Hse HT IH]; intros x Hin; [easy|].
  destruct Hin as [<-|Hin]; [cbn; lia|]. specialize (IH x Hin). lia.
Qed.

(** a tiled run whose non-last bins all have width b and whose last bin has a
    width in [1, b] is exactly the ideal fixed-width chromosome; its end lies in the b positions up to the
    multiple of b that closes its last bin *)
Lemma tiled_fixed_is_ideal c b : 1 <= b ->
  forall blk k,
  Tiled c (k * b) blk -> blk <> [] ->
  (forall w, In w (removelast (map bwidth blk)) -> w = b) ->
  last (map bwidth blk) 0 <= b ->
  blk = map (ideal_bin c (chrom_end blk) b) (zrange k (length blk)) /\
  (k + Z.of_nat (length blk) - 1) * b < chrom_end blk <= (k + Z.of_nat (length blk)) * b.
Proof.
  intros Hb blk. induction blk as [|x blk IH]; intros k HT Hne Hw Hl; [congruence|].
  inversion HT as [|s e l Hse HT']; subst.
  destruct blk as [|y blk].
  - cbn in *. unfold chrom_end, ideal_bin, bwidth, bend, bstart in *; cbn [last fst snd] in *.
    rewrite Z.add_0_r, Z.min_r by lia. split; [reflexivity|lia].
  - assert (He : e = (k + 1) * b).
    { specialize (Hw (bwidth (c, k * b, e)) (or_introl eq_refl)).
      unfold bwidth, bend, bstart in Hw; cbn [fst snd] in Hw. lia. }
    subst e. change (chrom_end (_ :: y :: blk)) with (chrom_end (y :: blk)).
    pose proof (tiled_end_gt _ _ _ HT' ltac:(discriminate)) as Hend.
    destruct (IH (k + 1) HT' ltac:(discriminate)) as [IH1 IH2].
    { intros w Hin. apply Hw. right. exact Hin. }
    { exact Hl. }
    cbn [length] in *. rewrite zrange_cons. cbn [map]. split; [|lia].
    f_equal; [|exact IH1]. unfold ideal_bin. now rewrite Z.min_l by lia.
Qed.

(** the bin table, chromosome by chromosome: block i is not empty and tiles chromosome i from position 0 *)
Definition ValidBlocks (blocks : list (list bin)) : Prop :=
  forall i blk, nth_error blocks i = Some blk -> blk <> [] /\ Tiled (Z.of_nat i) 0 blk.

Lemma tiled_chrom c s l x : Tiled c s l -> In x l -> bchrom x = c.
Proof. induction 1; intros Hin; [easy|]. destruct Hin as [<-|Hin]; auto. Qed.

Lemma tiled_width_pos c s l x : Tiled c s l -> In x l -> 1 <= bwidth x.
Proof.
  induction 1; intros Hin; [easy|]. destruct Hin as [<-|Hin]; auto.
  unfold bwidth, bend, bstart; cbn; lia.
Qed.

(** in a valid table the chromosome ids grow with the block: the bins before block i carry smaller
    ids, those from block i on carry i or more *)
Lemma firstn_chrom blocks i x : ValidBlocks blocks -> In x (concat (firstn i blocks)) -> bchrom x < Z.of_nat i.
Proof.
  intros HV Hx. apply in_concat in Hx as [b0 [Hb0 Hx]]. apply In_nth_error in Hb0 as [j Hj].
  apply nth_error_firstn_some in Hj as [Hj Hjl].
  destruct (HV _ _ Hj) as [_ HT]. rewrite (tiled_chrom _ _ _ _ HT Hx). lia.
Qed.

Lemma skipn_chrom blocks i x : ValidBlocks blocks -> In x (concat (skipn i blocks)) -> Z.of_nat i <= bchrom x.
Proof.
  intros HV Hx. apply in_concat in Hx as [b0 [Hb0 Hx]]. apply In_nth_error in Hb0 as [j Hj].
  rewrite nth_error_skipn in Hj.
  destruct (HV _ _ Hj) as [_ HT]. rewrite (tiled_chrom _ _ _ _ HT Hx). lia.
Qed.

Lemma rows_of_valid blocks :
  ValidBlocks blocks ->
  forall i blk, nth_error blocks i = Some blk -> rows_of (concat blocks) (Z.of_nat i) = blk.
Proof.
  intros HV i blk Hi. destruct (HV i blk Hi) as [_ HT].
  unfold rows_of. rewrite (concat_split _ _ _ Hi), !filter_app.
  rewrite (filter_none _ (concat (firstn i blocks))), (filter_none _ (concat (skipn (S i) blocks))), filter_all.
  - now rewrite app_nil_r.
  - intros x Hx. rewrite (tiled_chrom _ _ _ _ HT Hx). lia.
  - intros x Hx. pose proof (skipn_chrom _ _ _ HV Hx). lia.
  - intros x Hx. pose proof (firstn_chrom _ _ _ HV Hx). lia.
Qed.

Lemma chroms_of_valid blocks :
  ValidBlocks blocks ->
  forall c, In c (chroms_of (concat blocks)) <-> exists i blk, nth_error blocks i = Some blk /\ c = Z.of_nat i.
Proof.
  intros HV c. unfold chroms_of. rewrite nodup_In, in_map_iff. split.
  - intros [x [<- Hx]]. apply in_concat in Hx as [blk [Hblk Hx]]. apply In_nth_error in Hblk as [i Hi].
    exists i, blk. split; [exact Hi|]. destruct (HV i blk Hi) as [_ HT]. apply (tiled_chrom _ _ _ _ HT Hx).
  - intros (i & blk & Hi & ->). destruct (HV i blk Hi) as [Hne HT]. destruct blk as [|x blk]; [congruence|].
    exists x. split; [apply (tiled_chrom _ _ _ _ HT); now left|].
    apply in_concat. exists (x :: blk). split; [eapply nth_error_In; eauto|now left].
Qed.

Theorem binsize_truthful blocks b :
  ValidBlocks blocks -> get_binsize (concat blocks) = Some b ->
  1 <= b /\
  forall i blk, nth_error blocks i = Some blk ->
    blk = ideal_chrom (Z.of_nat i) (chrom_end blk) b.
Proof.
  intros HV H. unfold get_binsize in H.
  set (t := concat blocks) in *.
  set (groups := map (fun c => map bwidth (rows_of t c)) (chroms_of t)) in *.
  destruct (nodup Z.eq_dec (concat (map (@removelast Z) groups))) as [|b' [|? ?]] eqn:Es; try discriminate.
  destruct (existsb (fun w => b' <? w) (map (fun g => last g 0) groups)) eqn:El; [discriminate|].
  injection H as ->.
  (* b is the one width of a non-last bin, no last bin is wider, and the groups are the blocks *)
  assert (Hsz : forall w, In w (concat (map (@removelast Z) groups)) <-> w = b).
  { intros w. rewrite <- (nodup_In Z.eq_dec), Es. cbn. split; [now intros [<-|[]]|intros ->; now left]. }
  assert (Hgrp : forall g, In g groups <-> exists i blk, nth_error blocks i = Some blk /\ g = map bwidth blk).
  { intros g. unfold groups. rewrite in_map_iff. split.
    - intros (c & <- & Hc). apply chroms_of_valid in Hc as (i & blk & Hi & ->); [|exact HV].
      exists i, blk. unfold t. now rewrite (rows_of_valid _ HV i blk Hi).
    - intros (i & blk & Hi & ->). exists (Z.of_nat i). unfold t. rewrite (rows_of_valid _ HV i blk Hi).
      split; [reflexivity|]. apply chroms_of_valid; eauto. }
  assert (Hb : 1 <= b).
  { (* b is the width of some bin *)
    pose proof (proj2 (Hsz b) eq_refl) as Hin. apply in_concat in Hin as (g' & Hg' & Hbg).
    apply in_map_iff in Hg' as (g & <- & Hg). apply Hgrp in Hg as (i & blk & Hi & ->).
    apply in_removelast, in_map_iff in Hbg as (x & <- & Hx).
    destruct (HV i blk Hi) as [_ HT]. exact (tiled_width_pos _ _ _ _ HT Hx). }
  split; [exact Hb|].
  intros i blk Hi. destruct (HV i blk Hi) as [Hne HT].
  assert (Hg : In (map bwidth blk) groups) by (apply Hgrp; eauto).
  destruct (tiled_fixed_is_ideal (Z.of_nat i) b Hb blk 0 HT Hne) as [Hid Hbr].
  - intros w Hw. apply Hsz, in_concat. exists (removelast (map bwidth blk)). split; [|exact Hw].
    apply in_map_iff. eauto.
  - apply Z.nlt_ge. intros Hgt. apply Bool.not_true_iff_false in El. apply El, existsb_exists.
    exists (last (map bwidth blk) 0). split; [apply in_map_iff; eauto|lia].
  - unfold ideal_chrom. rewrite (cdiv_eq _ b (Z.of_nat (length blk))), Nat2Z.id by lia. exact Hid.
Qed.

Corollary fixed_table_determined blocks1 blocks2 b :
  ValidBlocks blocks1 -> ValidBlocks blocks2 ->
  get_binsize (concat blocks1) = Some b -> get_binsize (concat blocks2) = Some b ->
  map chrom_end blocks1 = map chrom_end blocks2 ->
  blocks1 = blocks2.
Proof.
  intros V1 V2 H1 H2 Hlen.
  destruct (binsize_truthful _ _ V1 H1) as [_ T1].
  destruct (binsize_truthful _ _ V2 H2) as [_ T2].
  apply nth_error_ext'. intros i.
  pose proof (f_equal (fun l => nth_error l i) Hlen) as H. cbn beta in H. rewrite !nth_error_map in H.
  destruct (nth_error blocks1 i) as [b1|] eqn:E1, (nth_error blocks2 i) as [b2|] eqn:E2; try discriminate; [|reflexivity].
  injection H as H. now rewrite (T1 i b1 E1), (T2 i b2 E2), H.
Qed.

(** the table of [binnify], one block for each chromosome length *)
Definition binnify_blocks (sizes : list Z) (b : Z) : list (list bin) :=
  map (fun ci => binnify_chrom (fst ci) (snd ci) b) (enumerate sizes).

Theorem binnify_blocks_spec sizes b :
  Forall (fun L => 1 <= L) sizes -> 1 <= b ->
  length (binnify_blocks sizes b) = length sizes /\
  forall i L, nth_error sizes i = Some L ->
    nth_error (binnify_blocks sizes b) i = Some (ideal_chrom (Z.of_nat i) L b).
Proof.
  intros HL Hb. unfold binnify_blocks. split.
  - now rewrite map_length, enumerate_length.
  - intros i L Hi. rewrite nth_error_map, (nth_error_enumerate _ _ _ Hi). cbn [option_map fst snd].
    f_equal. apply binnify_chrom_spec; auto.
    rewrite Forall_forall in HL. apply HL. eapply nth_error_In; eauto.
Qed.

Theorem binnify_valid sizes b :
  Forall (fun L => 1 <= L) sizes -> 1 <= b ->
  ValidBlocks (binnify_blocks sizes b) /\ map chrom_end (binnify_blocks sizes b) = sizes.
Proof.
  intros HL Hb. destruct (binnify_blocks_spec sizes b HL Hb) as [Hlen Hnth].
  assert (HLi : forall i L, nth_error sizes i = Some L -> 1 <= L).
  { intros i L Hi. rewrite Forall_forall in HL. apply HL. eapply nth_error_In; eauto. }
  split.
  - intros i blk Hi.
    destruct (nth_error sizes i) as [L|] eqn:E.
    + rewrite (Hnth i L E) in Hi. injection Hi as <-. split.
      * apply ideal_chrom_nonempty; eauto.
      * apply ideal_chrom_tiled; eauto.
    + apply nth_error_None in E. assert (i < length (binnify_blocks sizes b))%nat by (apply nth_error_Some; congruence). lia.
  - apply nth_error_ext'. intros i. rewrite nth_error_map.
    destruct (nth_error sizes i) as [L|] eqn:E.
    + rewrite (Hnth i L E). cbn. f_equal. apply ideal_chrom_end; eauto.
    + apply nth_error_None in E.
      assert (H : nth_error (binnify_blocks sizes b) i = None) by (apply nth_error_None; lia).
      now rewrite H.
Qed.

(** get_chromsizes (gc) on a table that opens with all the bins of chromosome c *)
Lemma gc_block c s blk rest :
  Tiled c s blk -> blk <> [] -> (forall y, In y rest -> bchrom y <> c) ->
  get_chromsizes (blk ++ rest) = (c, chrom_end blk) :: get_chromsizes rest.
Proof.
  intros HT. induction HT as [|s e l Hse HT IH]; intros Hne Hrest; [congruence|].
  cbn [app get_chromsizes]. unfold bchrom at 2; cbn [fst].
  destruct l as [|y l].
  - cbn [app]. destruct (existsb (fun y => bchrom y =? c) rest) eqn:E.
    + apply existsb_exists in E as [y [Hy Hc]]. exfalso. apply (Hrest y Hy). lia.
    + reflexivity.
  - assert (Hy : bchrom y = c) by (eapply tiled_chrom; [exact HT|now left]).
    cbn [app existsb]. rewrite Hy, Z.eqb_refl. cbn [orb].
    change (y :: l ++ rest) with ((y :: l) ++ rest).
    rewrite IH; [reflexivity|discriminate|exact Hrest].
Qed.

(** [ValidBlocks] read along the list: the first block is chromosome o, the next o + 1, and so on *)
Inductive BlocksFrom : Z -> list (list bin) -> Prop :=
| BF_nil o : BlocksFrom o []
| BF_cons o blk rest : blk <> [] -> Tiled o 0 blk -> BlocksFrom (o + 1) rest -> BlocksFrom o (blk :: rest).

Lemma blocksfrom_chrom o blocks : BlocksFrom o blocks -> forall y, In y (concat blocks) -> o <= bchrom y.
Proof.
  induction 1 as [|o blk rest Hne HT HB IH]; intros y Hy; [easy|].
  cbn in Hy. apply in_app_or in Hy as [Hy|Hy].
  - rewrite (tiled_chrom _ _ _ _ HT Hy). lia.
  - specialize (IH y Hy). lia.
Qed.

Lemma blocksfrom_numbered (k : nat) bl :
  (forall i blk, nth_error bl i = Some blk -> blk <> [] /\ Tiled (Z.of_nat (k + i)) 0 blk) -> BlocksFrom (Z.of_nat k) bl.
Proof.
  revert k. induction bl as [|blk bl IH]; intros k H; [constructor|].
  destruct (H 0%nat blk eq_refl) as [Hne HT]. rewrite Nat.add_0_r in HT.
  constructor; auto. replace (Z.of_nat k + 1) with (Z.of_nat (S k)) by lia. apply IH.
  intros i blk' Hi. replace (S k + i)%nat with (k + S i)%nat by lia. apply H. exact Hi.
Qed.

Lemma valid_blocksfrom blocks : ValidBlocks blocks -> BlocksFrom 0 blocks.
Proof. exact (blocksfrom_numbered 0 blocks). Qed.

Lemma gc_blocksfrom o blocks :
  BlocksFrom o blocks ->
  get_chromsizes (concat blocks) = combine (zrange o (length blocks)) (map chrom_end blocks).
Proof.
  induction 1 as [|o blk rest Hne HT HB IH]; [reflexivity|].
  cbn [concat length map]. rewrite zrange_cons. cbn [combine].
  rewrite (gc_block o 0 blk (concat rest) HT Hne).
  - now rewrite IH.
  - intros y Hy. assert (o + 1 <= bchrom y) by (eapply blocksfrom_chrom; eauto). lia.
Qed.

(** inferred chromosome lengths = ends of the last bins, in order *)
Theorem chromsizes_spec blocks :
  ValidBlocks blocks ->
  get_chromsizes (concat blocks) = combine (zrange 0 (length blocks)) (map chrom_end blocks).
Proof. intros HV. apply gc_blocksfrom. now apply valid_blocksfrom. Qed.

Lemma valid_blocks_b_sound blocks : valid_blocks_b blocks = true -> ValidBlocks blocks.
Proof.
  unfold valid_blocks_b. rewrite forallb_forall. intros H i blk Hi.
  specialize (H (Z.of_nat i, blk) ltac:(eapply nth_error_In; apply nth_error_enumerate; eauto)).
  cbn [fst snd] in H. apply andb_prop in H as [H1 H2]. split.
  - destruct blk; discriminate.
  - now apply tiled_b_spec.
Qed.

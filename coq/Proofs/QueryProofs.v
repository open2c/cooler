(** Proofs about the 2D range-query model (C03): CSR validity as a row decomposition, the reader and the direct
    engine as filters, admissible spans, and the fill-lower theorem: the reflecting reader is the direct one plus
    mirror images, so each task of the plan emits the symmetric completion on a box, and the boxes of a plan
    partition the window. *)
From Cooler Require Import Model.Query Proofs.PixelsProofs.
From Coq Require Import Sorted ZifyBool.

(** row k, k+1, ... of [rows] hold records whose bin1 is k, k+1, ... *)
Fixpoint labelled_from (k : Z) (rows : list (list ipixel)) : Prop :=
  match rows with
  | [] => True
  | r :: t => Forall (fun x => row (snd x) = k) r /\ labelled_from (k + 1) t
  end.

(** the pixel table is the concatenation of n rows, row i holds exactly the records with bin1 = i,
    and bin1_offset is the prefix-sum index of the row lengths (what index_pixels computes) *)
Definition ValidCSR (n : Z) (epx : list ipixel) (off : list Z) : Prop :=
  exists rows, zlen rows = n /\ epx = concat rows /\ off = psums 0 (map zlen rows) /\ labelled_from 0 rows.

(** the records of rows a .. b-1 *)
Definition seg (rows : list (list ipixel)) (a b : Z) : list ipixel := concat (slice rows a b).
Lemma seg_split rows a b c : 0 <= a <= b -> b <= c -> seg rows a c = seg rows a b ++ seg rows b c.
Proof. intros. unfold seg. rewrite (slice_split rows a b c) by lia. apply concat_app. Qed.

Lemma psums_ge acc ls : Forall (fun x => 0 <= x) ls -> Forall (fun y => acc <= y) (psums acc ls).
Proof.
  revert acc; induction ls as [|x t IH]; intros acc H; cbn [psums]; [repeat constructor; lia|].
  inversion H; subst. constructor; [lia|]. eapply Forall_impl; [|apply IH; assumption]. intros; cbv beta in *; lia.
Qed.
Lemma psums_sorted acc ls : Forall (fun x => 0 <= x) ls -> StronglySorted Z.le (psums acc ls).
Proof.
  revert acc; induction ls as [|x t IH]; intros acc H; cbn [psums]; [repeat constructor|].
  inversion H; subst. constructor; [apply IH; assumption|].
  eapply Forall_impl; [|apply psums_ge; assumption]. intros; cbv beta in *; lia.
Qed.
Lemma psums_length acc ls : length (psums acc ls) = S (length ls).
Proof. revert acc; induction ls as [|x t IH]; intro acc; cbn [psums length]; [reflexivity|]. now rewrite IH. Qed.
Lemma psums_nth (rows : list (list ipixel)) : forall acc i, (i <= length rows)%nat ->
  nth i (psums acc (map zlen rows)) 0 = acc + zlen (concat (firstn i rows)).
Proof.
  induction rows as [|r t IH]; intros acc [|i] Hi; cbn [map psums nth firstn concat length] in *; try (unfold zlen; cbn [length]; lia).
  rewrite IH, zlen_app by lia. lia.
Qed.

Lemma labelled_app k a b : labelled_from k (a ++ b) <-> labelled_from k a /\ labelled_from (k + zlen a) b.
Proof.
  revert k; induction a as [|r t IH]; intro k; cbn [app labelled_from].
  - change (zlen []) with 0. rewrite Z.add_0_r. tauto.
  - rewrite IH, zlen_cons, Z.add_assoc. tauto.
Qed.
Lemma labelled_in k rows r : labelled_from k rows -> In r (concat rows) -> k <= row (snd r) < k + zlen rows.
Proof.
  revert k; induction rows as [|r0 t IH]; intros k H Hin; [destruct Hin|]. destruct H as [H1 H2]. rewrite zlen_cons. pose proof (zlen_nonneg t).
  apply in_app_or in Hin. destruct Hin as [Hin|Hin]; [rewrite Forall_forall in H1; apply H1 in Hin|apply (IH _ H2) in Hin]; lia.
Qed.

Definition in_window (bb : bbox) (p : pixel) : bool :=
  let '(i0, i1, j0, j1) := bb in (i0 <=? row p) && (row p <? i1) && (j0 <=? col p) && (col p <? j1).

(** lo <= e1 <= e2 <= ... *)
Fixpoint chain (lo : Z) (es : list Z) : Prop :=
  match es with [] => True | e :: t => lo <= e /\ chain e t end.
Lemma chain_last lo es : chain lo es -> lo <= last es lo.
Proof.
  revert lo; induction es as [|e t IH]; intros lo H; [cbn; lia|].
  destruct H as [H1 H2]. rewrite last_cons. specialize (IH e H2). lia.
Qed.

Section Valid.
Variables (n : Z) (rows : list (list ipixel)).
Hypothesis Hn : zlen rows = n.
Hypothesis Hlab : labelled_from 0 rows.
Let epx := concat rows.
Let off := psums 0 (map zlen rows).

(** two row numbers cut the rows, and so the table, in three *)
Lemma rows_split3 a b : 0 <= a -> a <= b -> b <= n -> rows = slice rows 0 a ++ slice rows a b ++ slice rows b n.
Proof. intros. rewrite <- (slice_split rows a b n), <- (slice_split rows 0 a n) by lia. symmetry. apply slice_all. lia. Qed.
Lemma epx_split3 a b : 0 <= a -> a <= b -> b <= n -> epx = seg rows 0 a ++ seg rows a b ++ seg rows b n.
Proof. intros. unfold epx, seg. rewrite <- !concat_app. f_equal. now apply rows_split3. Qed.

Lemma seg_rows a b r : 0 <= a -> a <= b -> b <= n -> In r (seg rows a b) -> a <= row (snd r) < b.
Proof.
  intros Ha Hab Hb Hr. pose proof Hlab as HL. rewrite (rows_split3 a b) in HL by assumption.
  apply labelled_app, proj2, labelled_app, proj1 in HL. apply (labelled_in _ _ r HL) in Hr.
  unfold zlen in Hr. rewrite !slice_length in Hr by lia. lia.
Qed.
Lemma seg_filter a b : 0 <= a -> a <= b -> b <= n ->
  seg rows a b = filter (fun r => (a <=? row (snd r)) && (row (snd r) <? b)) epx.
Proof.
  intros. rewrite (epx_split3 a b), !filter_app by assumption.
  rewrite (filter_none _ (seg rows 0 a)), (filter_none _ (seg rows b n)), filter_all; [now rewrite app_nil_r| | |];
    intros r Hr; apply seg_rows in Hr; lia.
Qed.

Lemma off_nth i : 0 <= i <= n -> znth off i 0 = zlen (seg rows 0 i).
Proof. intro Hi. unfold znth, off, seg, slice. rewrite psums_nth, Z.sub_0_r; [reflexivity|]. unfold zlen in Hn. lia. Qed.
(** bin1_offset delimits the rows in the table *)
Lemma slice_epx a b : 0 <= a -> a <= b -> b <= n -> slice epx (znth off a 0) (znth off b 0) = seg rows a b.
Proof. intros. rewrite !off_nth, (seg_split rows 0 a b), zlen_app, (epx_split3 a b) by lia. apply slice_app_mid. Qed.
Lemma seg_empty_off a b : 0 <= a -> a <= b -> b <= n -> znth off a 0 = znth off b 0 -> seg rows a b = [].
Proof. intros ? ? ? Hoff. rewrite <- slice_epx, Hoff by assumption. apply slice_empty. Qed.

(** the stored bin1 of a record of row i is i, so relabelling it with the loop variable changes nothing *)
Lemma read_row_valid j0 j1 i : 0 <= i < n -> read_row epx off j0 j1 i = filter (colmask j0 j1) (seg rows i (i + 1)).
Proof.
  intro Hi. unfold read_row. rewrite slice_epx by lia. rewrite <- (map_id (filter _ _)) at 2. apply map_ext_in.
  intros [ix [[r c] v]] Hin. apply filter_In, proj1, seg_rows in Hin; try lia.
  unfold row, col, val in *; cbn [fst snd] in *. repeat f_equal. lia.
Qed.
Lemma read_rows_valid j0 j1 : forall m s0, 0 <= s0 -> s0 + Z.of_nat m <= n ->
  flat_map (read_row epx off j0 j1) (zrange s0 m) = filter (colmask j0 j1) (seg rows s0 (s0 + Z.of_nat m)).
Proof.
  induction m as [|m IH]; intros s0 H0 H1.
  - cbn [Z.of_nat]. rewrite Z.add_0_r. unfold seg. now rewrite slice_empty.
  - rewrite zrange_cons. cbn [flat_map]. rewrite read_row_valid, IH, <- filter_app, <- seg_split by lia. do 2 f_equal. lia.
Qed.
Lemma reader_valid i0 i1 j0 j1 s0 s1 : 0 <= s0 -> s0 <= s1 -> s1 <= n ->
  csr_reader epx off (i0, i1, j0, j1) (s0, s1) false = filter (colmask j0 j1) (seg rows s0 s1).
Proof. intros. unfold csr_reader. rewrite read_rows_valid by lia. do 2 f_equal. lia. Qed.

(** spans as produced from an admissible edge list for the rows [x0, x1) *)
Definition AdmissibleSpans (x0 x1 : Z) (sps : list span) : Prop :=
  exists es, sps = pairs_of_edges (x0 :: es) /\ chain x0 es /\ last es x0 <= x1 /\ znth off (last es x0) 0 = znth off x1 0.

Lemma direct_pairs i0 i1 j0 j1 : forall es e0, 0 <= e0 -> chain e0 es -> last es e0 <= n ->
  flat_map (fun sp => csr_reader epx off (i0, i1, j0, j1) sp false) (pairs_of_edges (e0 :: es)) =
  filter (colmask j0 j1) (seg rows e0 (last es e0)).
Proof.
  induction es as [|e1 es IH]; intros e0 H0 Hc Hl.
  - cbn [last]. change (pairs_of_edges [e0]) with (@nil span). cbn [flat_map]. unfold seg. now rewrite slice_empty.
  - destruct Hc as [Hc1 Hc2]. rewrite last_cons in Hl |- *.
    assert (Hcl := chain_last e1 es Hc2).
    replace (pairs_of_edges (e0 :: e1 :: es)) with ((e0, e1) :: pairs_of_edges (e1 :: es)) by reflexivity.
    cbn [flat_map]. rewrite (IH e1 ltac:(lia) Hc2 Hl), reader_valid by lia.
    rewrite (seg_split rows e0 e1 (last es e1)) by lia. now rewrite filter_app.
Qed.

(** the direct engine returns the stored records inside the window, in storage order *)
Theorem direct_query_rows spans i0 i1 j0 j1 : 0 <= i0 -> i0 <= i1 -> i1 <= n ->
  AdmissibleSpans i0 i1 (spans (i0, i1, j0, j1)) \/ (j1 <= j0 /\ spans (i0, i1, j0, j1) = []) ->
  direct_query epx off spans (i0, i1, j0, j1) = filter (fun r => in_window (i0, i1, j0, j1) (snd r)) epx.
Proof.
  intros H0 H01 H1 Hsp. unfold direct_query.
  replace (filter _ epx) with (filter (colmask j0 j1) (seg rows i0 i1))
    by (rewrite seg_filter, filter_filter by lia; apply filter_ext; intro r; unfold in_window, colmask; lia).
  destruct Hsp as [[es [-> [Hc [Hl Ho]]]]|[Hy ->]].
  - assert (Hcl := chain_last i0 es Hc). rewrite (direct_pairs i0 i1 j0 j1 es i0 H0 Hc ltac:(lia)).
    rewrite (seg_split rows i0 (last es i0) i1) by lia.
    rewrite (seg_empty_off (last es i0) i1 ltac:(lia) Hl H1 Ho). now rewrite app_nil_r.
  - cbn [flat_map]. symmetry. apply filter_none. intros r _. unfold colmask. lia.
Qed.
End Valid.

Definition pixel_eq_dec : forall a b : pixel, {a = b} + {a <> b}.
Proof. decide equality; [apply Z.eq_dec|]. decide equality; apply Z.eq_dec. Defined.
Definition cnt (l : list ipixel) (x : pixel) : nat := count_occ pixel_eq_dec (map snd l) x.

Lemma flip_flip p : flip (flip p) = p.
Proof. destruct p as [[a b] c]; reflexivity. Qed.
Lemma look_map_flip l i j : look (map flip l) (i, j) = look l (j, i).
Proof.
  induction l as [|[[a b] v] t IH]; cbn [map look]; [reflexivity|]. unfold flip at 1, row, col, val; cbn [fst snd]. rewrite IH. f_equal.
  destruct (kcmp (i, j) (b, a)) eqn:E1; [apply kcmp_swap in E1; now rewrite E1| |];
    (destruct (kcmp (j, i) (a, b)) eqn:E2; [apply kcmp_swap in E2; congruence|reflexivity|reflexivity]).
Qed.
Lemma cnt_app a b x : cnt (a ++ b) x = (cnt a x + cnt b x)%nat.
Proof. unfold cnt. now rewrite map_app, count_occ_app. Qed.
Lemma count_filter (f : pixel -> bool) l x :
  count_occ pixel_eq_dec (filter f l) x = if f x then count_occ pixel_eq_dec l x else 0%nat.
Proof.
  induction l as [|a t IH]; cbn [filter count_occ]; [now destruct (f x)|].
  destruct (f a) eqn:E; cbn [count_occ]; destruct (pixel_eq_dec a x) as [<-|Hne]; rewrite IH, ?E; reflexivity.
Qed.
Lemma count_map_flip l x : count_occ pixel_eq_dec (map flip l) x = count_occ pixel_eq_dec l (flip x).
Proof.
  induction l as [|a t IH]; cbn [map count_occ]; [reflexivity|].
  destruct (pixel_eq_dec (flip a) x) as [E|E], (pixel_eq_dec a (flip x)) as [E'|E']; rewrite IH; try reflexivity.
  - destruct E'. now rewrite <- E, flip_flip.
  - destruct E. now rewrite E', flip_flip.
Qed.
Lemma cnt_filter g f l x : (forall r, g r = f (snd r)) -> cnt (filter g l) x = if f x then cnt l x else 0%nat.
Proof. intro Hg. unfold cnt. now rewrite (filter_ext _ _ Hg), <- (filter_map_swap snd f), count_filter. Qed.
Lemma cnt_iflip l x : cnt (map iflip l) x = cnt l (flip x).
Proof. unfold cnt. rewrite <- count_map_flip, !map_map. reflexivity. Qed.
(** sums of gated counts: [if b then c else 0] is the contribution [c] of a record selected when [b] holds *)
Lemma ifz_and (b1 b2 : bool) (c : nat) : (if b1 then (if b2 then c else 0) else 0)%nat = if b1 && b2 then c else 0%nat.
Proof. now destruct b1. Qed.
Lemma ifz_ext (b b' : bool) (c : nat) : b = b' -> (if b then c else 0%nat) = if b' then c else 0%nat.
Proof. now intros ->. Qed.
Lemma ifz_zero (b : bool) (c : nat) : (b = true -> c = 0%nat) -> (if b then c else 0%nat) = 0%nat.
Proof. destruct b; auto. Qed.
Lemma ifz_add (b1 b2 b : bool) (c : nat) : b1 || b2 = b -> b1 && b2 = false ->
  ((if b1 then c else 0) + (if b2 then c else 0))%nat = if b then c else 0%nat.
Proof. intros <-. now destruct b1, b2. Qed.

(** [to_duplex i1] of Model/Query.v as a predicate on the pixel alone *)
Definition tdP (i1 : Z) (p : pixel) : bool := negb (row p =? col p) && (col p <? i1).
(** the reflecting reader returns what the plain one does, followed by the mirror images of the records that are
    off the diagonal and left of the window's last row *)
Lemma csr_reader_reflect epx off i0 i1 j0 j1 sp :
  csr_reader epx off (i0, i1, j0, j1) sp true =
  csr_reader epx off (i0, i1, j0, j1) sp false ++ map iflip (filter (to_duplex i1) (csr_reader epx off (i0, i1, j0, j1) sp false)).
Proof. now destruct sp. Qed.
Lemma cnt_flat_map_reflect {A} (f : A -> list ipixel) g l x :
  cnt (flat_map (fun a => f a ++ map iflip (filter g (f a))) l) x =
  (cnt (flat_map f l) x + cnt (filter g (flat_map f l)) (flip x))%nat.
Proof.
  induction l as [|a t IH]; [reflexivity|]. cbn [flat_map]. rewrite filter_app, !cnt_app, cnt_iflip, IH. lia.
Qed.

Lemma comes_before_eq a0 a1 b0 b1 strict :
  comes_before a0 a1 b0 b1 strict = (a0 <? b0) && (if strict then a1 <=? b0 else a1 <=? b1).
Proof. unfold comes_before. now destruct (a0 <? b0). Qed.
Lemma contains_nonstrict a0 a1 b0 b1 : contains a0 a1 b0 b1 false = (a0 <=? b0) && (b1 <=? a1).
Proof. unfold contains. cbn [andb]. destruct ((a0 >? b0) || (a1 <? b1)) eqn:E; lia. Qed.

(** a window that ends lower than it ends right is planned as its transpose, every task transposed *)
Definition transposed (t : bool * bbox) : bool * bbox := (negb (fst t), snd t).
Lemma fill_lower_plan_transpose i0 i1 j0 j1 : j1 < i1 ->
  fill_lower_plan (i0, i1, j0, j1) = option_map (map transposed) (fill_lower_plan (j0, j1, i0, i1)).
Proof.
  intro H. unfold fill_lower_plan. replace (i1 >? j1) with true by lia. replace (j1 >? i1) with false by lia. cbv iota beta.
  destruct ((j0 =? i0) || comes_before j0 j1 i0 i1 true); [reflexivity|].
  destruct (comes_before j0 j1 i0 i1 false); [reflexivity|]. now destruct (contains i0 i1 j0 j1 false).
Qed.

(** the three shapes of a plan, by the position of the row range [i0, i1) relative to the column range [j0, j1), i1 <= j1 *)
Lemma fill_lower_plan_apart i0 i1 j0 j1 : i1 <= j1 -> i0 = j0 \/ (i0 < j0 /\ i1 <= j0) ->
  fill_lower_plan (i0, i1, j0, j1) = Some [(false, (i0, i1, j0, j1))].
Proof.
  intros. unfold fill_lower_plan. replace (i1 >? j1) with false by lia. cbv iota beta. rewrite comes_before_eq.
  now replace ((i0 =? j0) || (i0 <? j0) && (i1 <=? j0)) with true by lia.
Qed.
Lemma fill_lower_plan_overlap i0 i1 j0 j1 : i1 <= j1 -> i0 < j0 < i1 ->
  fill_lower_plan (i0, i1, j0, j1) = Some [(false, (i0, j0, j0, j1)); (false, (j0, i1, j0, j1))].
Proof.
  intros. unfold fill_lower_plan. replace (i1 >? j1) with false by lia. cbv iota beta. rewrite !comes_before_eq.
  replace ((i0 =? j0) || (i0 <? j0) && (i1 <=? j0)) with false by lia.
  now replace ((i0 <? j0) && (i1 <=? j1)) with true by lia.
Qed.
Lemma fill_lower_plan_inside i0 i1 j0 j1 : i1 <= j1 -> j0 < i0 ->
  fill_lower_plan (i0, i1, j0, j1) = Some [(true, (j0, i0, i0, i1)); (false, (i0, i1, i0, j1))].
Proof.
  intros. unfold fill_lower_plan. replace (i1 >? j1) with false by lia. cbv iota beta. rewrite !comes_before_eq, contains_nonstrict.
  replace ((i0 =? j0) || (i0 <? j0) && (i1 <=? j0)) with false by lia.
  replace ((i0 <? j0) && (i1 <=? j1)) with false by lia. now replace ((j0 <=? i0) && (i1 <=? j1)) with true by lia.
Qed.

Lemma in_window_flip i0 i1 j0 j1 x : in_window (j0, j1, i0, i1) (flip x) = in_window (i0, i1, j0, j1) x.
Proof.
  destruct x as [[a b] v]. unfold in_window, flip, row, col; cbn [fst snd].
  rewrite <- (andb_assoc _ (i0 <=? a)), <- (andb_assoc _ (j0 <=? b)). apply andb_comm.
Qed.

Section Main.
Variables (n : Z) (rows : list (list ipixel)).
Hypothesis Hn : zlen rows = n.
Hypothesis Hlab : labelled_from 0 rows.
Let epx := concat rows.
Let off := psums 0 (map zlen rows).
Variable spans : bbox -> list span.
(** what get_spans guarantees (SpansProofs.spans_with_admissible): admissible edges, or nothing when the column range is empty *)
Hypothesis Hspans : forall x0 x1 y0 y1, 0 <= x0 -> x0 <= x1 -> x1 <= n ->
  AdmissibleSpans rows x0 x1 (spans (x0, x1, y0, y1)) \/ (y1 <= y0 /\ spans (x0, x1, y0, y1) = []).

Lemma cnt_run_tr tr bb x :
  cnt (run_task epx off spans (tr, bb)) x = cnt (run_task epx off spans (false, bb)) (if tr then flip x else x).
Proof. destruct tr; [|reflexivity]. rewrite <- cnt_iflip. f_equal. unfold run_task. cbn [fst snd]. now rewrite map_flat_map. Qed.
Lemma cnt_tasks_transposed tasks x :
  cnt (flat_map (run_task epx off spans) (map transposed tasks)) x = cnt (flat_map (run_task epx off spans) tasks) (flip x).
Proof.
  induction tasks as [|[tr bb] ts IH]; [reflexivity|]. cbn [map flat_map]. rewrite !cnt_app, IH. f_equal.
  unfold transposed. cbn [fst snd]. rewrite cnt_run_tr, (cnt_run_tr tr). destruct tr; cbn [negb]; now rewrite ?flip_flip.
Qed.

Hypothesis Hupper : forall r, In r epx -> row (snd r) <= col (snd r).
Lemma cnt_lower_zero y : col y < row y -> cnt epx y = 0%nat.
Proof.
  intro H. apply count_occ_not_In. intro Hin. apply in_map_iff in Hin. destruct Hin as [r [<- Hr]]. apply Hupper in Hr. lia.
Qed.

(** how often the symmetric completion of the table holds [x]: the stored count of [x] or of its mirror image,
    whichever lies in the upper triangle *)
Definition sym_cnt (x : pixel) : nat := cnt epx (if row x <=? col x then x else flip x).
(** whether the reflecting task on the box [bb] emits the completion's records at coordinate [x] *)
Definition emits (bb : bbox) (x : pixel) : bool :=
  if row x <=? col x then in_window bb x else in_window bb (flip x) && (row x <? snd (fst (fst bb))).

Lemma sym_cnt_flip x : sym_cnt (flip x) = sym_cnt x.
Proof.
  destruct x as [[a b] v]. unfold sym_cnt, flip, row, col, val; cbn [fst snd].
  destruct (Z.leb_spec a b), (Z.leb_spec b a); try reflexivity; [|lia]. now replace b with a by lia.
Qed.
Lemma sym_cnt_eq x : sym_cnt x = (cnt epx x + if negb (row x =? col x)%Z then cnt epx (flip x) else 0)%nat.
Proof.
  unfold sym_cnt. destruct (Z.leb_spec (row x) (col x)); cbv iota.
  - rewrite ifz_zero; [lia|]. intro. apply cnt_lower_zero. destruct x as [[a b] v]. unfold flip, row, col in *; cbn [fst snd] in *. lia.
  - rewrite (cnt_lower_zero x) by lia. now replace (row x =? col x) with false by lia.
Qed.

Lemma cnt_upper_task x0 x1 y0 y1 z : 0 <= x0 <= x1 -> x1 <= n ->
  cnt (run_task epx off spans (false, (x0, x1, y0, y1))) z = if emits (x0, x1, y0, y1) z then sym_cnt z else 0%nat.
Proof.
  intros [? ?] ?. unfold run_task. cbn [fst snd].
  rewrite (flat_map_ext _ _ (csr_reader_reflect epx off x0 x1 y0 y1)), cnt_flat_map_reflect.
  change (flat_map _ (spans _)) with (direct_query epx off spans (x0, x1, y0, y1)).
  unfold epx, off. rewrite (direct_query_rows n rows Hn Hlab) by auto. fold epx.
  rewrite (cnt_filter (to_duplex x1) (tdP x1)), !(cnt_filter (fun r => in_window _ (snd r)) (in_window (x0, x1, y0, y1))), ifz_and by reflexivity.
  unfold emits, sym_cnt. destruct (Z.leb_spec (row z) (col z)); cbv iota.
  - rewrite (ifz_zero _ (cnt epx (flip z))); [now rewrite Nat.add_0_r|]. intro. apply cnt_lower_zero.
    destruct z as [[a b] v]. unfold tdP, flip, row, col in *; cbn [fst snd] in *. lia.
  - rewrite (cnt_lower_zero z), ifz_zero by (reflexivity || lia). apply ifz_ext.
    destruct z as [[a b] v]. unfold tdP, in_window, flip, row, col in *; cbn [fst snd] in *. lia.
Qed.

Lemma cnt_run_task tr x0 x1 y0 y1 x : 0 <= x0 <= x1 -> x1 <= n ->
  cnt (run_task epx off spans (tr, (x0, x1, y0, y1))) x =
  if emits (x0, x1, y0, y1) (if tr then flip x else x) then sym_cnt x else 0%nat.
Proof. intros. rewrite cnt_run_tr, cnt_upper_task by assumption. destruct tr; now rewrite ?sym_cnt_flip. Qed.

(** for a window that ends no lower than it ends right, the boxes of the plan's tasks, as emitted, partition the window *)
Lemma fill_lower_cnt_upper i0 i1 j0 j1 : 0 <= i0 -> i0 <= i1 -> 0 <= j0 -> i1 <= j1 -> j1 <= n ->
  exists out, fill_lower_query epx off spans (i0, i1, j0, j1) = Some out /\
    forall x, cnt out x = if in_window (i0, i1, j0, j1) x then sym_cnt x else 0%nat.
Proof.
  intros. unfold fill_lower_query.
  assert (Hpos : (i0 = j0 \/ (i0 < j0 /\ i1 <= j0)) \/ i0 < j0 < i1 \/ j0 < i0) by lia.
  (* one task that emits on the whole window, or two of which exactly one emits at each coordinate of the window;
     [lia] decides this once the triangle of the coordinate (a, b) is known *)
  destruct Hpos as [Hp|[Hp|Hp]];
    [rewrite fill_lower_plan_apart by lia|rewrite fill_lower_plan_overlap by lia|rewrite fill_lower_plan_inside by lia];
    (eexists; split; [reflexivity|]); intros [[a b] v]; cbn [flat_map]; rewrite app_nil_r, ?cnt_app, !cnt_run_task by lia.
  - apply ifz_ext. unfold emits, in_window, flip, row, col; cbn [fst snd]. destruct (Z.leb_spec a b); lia.
  - apply ifz_add; unfold emits, in_window, flip, row, col; cbn [fst snd]; destruct (Z.leb_spec a b); lia.
  - apply ifz_add; unfold emits, in_window, flip, row, col; cbn [fst snd]; destruct (Z.leb_spec a b), (Z.leb_spec b a); lia.
Qed.

(** the fill-lower engine returns every element of the symmetric completion inside the window exactly as often as it is
    stored (so exactly once for a duplicate-free table), and nothing else *)
Theorem fill_lower_cnt i0 i1 j0 j1 : 0 <= i0 -> i0 <= i1 -> i1 <= n -> 0 <= j0 -> j0 <= j1 -> j1 <= n ->
  exists out, fill_lower_query epx off spans (i0, i1, j0, j1) = Some out /\
    forall x, cnt out x =
      if in_window (i0, i1, j0, j1) x then (cnt epx x + if negb (row x =? col x)%Z then cnt epx (flip x) else 0)%nat else 0%nat.
Proof.
  intros. setoid_rewrite <- sym_cnt_eq. destruct (Z_le_gt_dec i1 j1) as [Hle|Hgt]; [apply fill_lower_cnt_upper; lia|].
  destruct (fill_lower_cnt_upper j0 j1 i0 i1) as [out [Ho Hc]]; try lia.
  unfold fill_lower_query in *. rewrite fill_lower_plan_transpose by lia.
  destruct (fill_lower_plan (j0, j1, i0, i1)) as [tasks|]; [|discriminate]. injection Ho as <-.
  eexists; split; [reflexivity|]. intro x. rewrite cnt_tasks_transposed, Hc, sym_cnt_flip. apply ifz_ext, in_window_flip.
Qed.
End Main.

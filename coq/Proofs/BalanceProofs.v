(** The balancing model (C10, C11), in this order: the chunk spans tile the pixel table; reduce is a sum in a
    commutative monoid, so the marginals depend on the data only; a sweep's marginal is a row sum of
    diag(b) F diag(b); what one sweep and the whole loop preserve (zero pattern, hence the NaN set) and reach
    (the flatness bound); the marginal functions of the genome-wide and the trans-only mode (the latter through
    G = diag(cw) T diag(cw)); the bin masks and the whole genome-wide run; cis-only mode, per chromosome block, and its
    per-chromosome driver. *)
From Cooler Require Import Model.Balance Proofs.BaseProofs Proofs.BinsProofs.
From Coq Require Import Permutation Setoid Morphisms Lia Lqa ZifyBool Sorting.Sorted.
Open Scope Z_scope.

Inductive Chain : Z -> list (Z * Z) -> Z -> Prop :=
| Chain_nil : forall a, Chain a [] a
| Chain_cons : forall a m b r, a <= m -> Chain m r b -> Chain a ((a, m) :: r) b.

Lemma chain_le : forall a s b, Chain a s b -> a <= b.
Proof. induction 1; lia. Qed.

Lemma chain_in_bounds : forall a s e lo hi, Chain a s e -> In (lo, hi) s -> a <= lo /\ lo <= hi /\ hi <= e.
Proof.
  intros a s e lo hi H. induction H as [a|a m e r Ham Hc IH]; intros Hin; [contradiction|].
  pose proof (chain_le _ _ _ Hc). destruct Hin as [E|Hin]; [inversion E; subst; lia | specialize (IH Hin); lia].
Qed.

Lemma chain_last : forall a s e d, Chain a s e -> s <> [] -> snd (last s d) = e.
Proof.
  intros a s e d H. induction H as [a|a m e r Ham Hc IH]; intros Hne; [congruence|].
  destruct r as [|x r]; [inversion Hc; subst; reflexivity|].
  change (last ((a, m) :: x :: r) d) with (last (x :: r) d). apply IH. discriminate.
Qed.

Lemma chain_concat {A} : forall (l : list A) a s b,
  Chain a s b -> 0 <= a -> concat (map (fun sp => slice l (fst sp) (snd sp)) s) = slice l a b.
Proof.
  intros l a s b H. induction H as [a|a m b r Ham Hc IH]; intros Ha; simpl.
  - now rewrite slice_empty.
  - rewrite IH by lia. symmetry. apply slice_split; [lia | now apply chain_le in Hc].
Qed.

Definition in_span (k : Z) (s : Z * Z) : bool := (fst s <=? k) && (k <? snd s).

Lemma chain_none_below : forall a s b k, Chain a s b -> k < a -> filter (in_span k) s = [].
Proof.
  intros a s b k H. induction H as [a|a m b r Ham Hc IH]; intros Hk; simpl; [reflexivity|].
  unfold in_span at 1. simpl. replace (a <=? k) with false by lia. simpl. apply IH. lia.
Qed.

Lemma chain_exactly_one : forall a s b k, Chain a s b -> a <= k < b ->
  exists sp, filter (in_span k) s = [sp].
Proof.
  intros a s b k H. induction H as [a|a m b r Ham Hc IH]; intros Hk; simpl; [lia|].
  unfold in_span at 1. simpl.
  destruct (Z.ltb_spec k m) as [Hlt|Hge].
  - replace (a <=? k) with true by lia. simpl. exists (a, m). f_equal.
    eapply chain_none_below; eauto.
  - replace ((a <=? k) && false) with false by (now rewrite andb_false_r). apply IH. lia.
Qed.

Lemma combine_removelast_tl {A} : forall (f : nat -> A) m s,
  combine (removelast (map f (seq s (S m)))) (tl (map f (seq s (S m)))) =
  map (fun k => (f k, f (S k))) (seq s m).
Proof.
  intros f m. induction m as [|m IH]; intros s; [reflexivity|].
  cbn [seq map]. rewrite <- (IH (S s)). reflexivity.
Qed.

Lemma balance_spans_closed : forall nnz c, 0 <= nnz -> 1 <= c ->
  balance_spans nnz (Some c) =
  map (fun k => (Z.of_nat k * c, Z.of_nat (S k) * c)) (seq 0 (Z.to_nat (cdiv nnz c))).
Proof.
  intros nnz c Hn Hc. unfold balance_spans, arange.
  rewrite Z.sub_0_r, cdiv_shift by lia.
  pose proof (cdiv_nonneg nnz c Hn ltac:(lia)).
  replace (Z.to_nat (cdiv nnz c + 1)) with (S (Z.to_nat (cdiv nnz c))) by lia.
  apply (combine_removelast_tl (fun k => Z.of_nat k * c)).
Qed.

Lemma chain_steps : forall (f : nat -> Z) m s, (forall k, f k <= f (S k)) ->
  Chain (f s) (map (fun k => (f k, f (S k))) (seq s m)) (f (s + m)%nat).
Proof.
  intros f m. induction m as [|m IH]; intros s Hf; cbn [seq map].
  - rewrite Nat.add_0_r. constructor.
  - constructor; [apply Hf|]. rewrite <- Nat.add_succ_comm. now apply IH.
Qed.

Lemma balance_spans_chain : forall nnz c, 0 <= nnz -> 1 <= c ->
  Chain 0 (balance_spans nnz (Some c)) (cdiv nnz c * c).
Proof.
  intros nnz c Hn Hc. rewrite balance_spans_closed by lia.
  pose proof (cdiv_nonneg nnz c Hn ltac:(lia)).
  replace (cdiv nnz c * c) with (Z.of_nat (0 + Z.to_nat (cdiv nnz c)) * c) by lia.
  apply (chain_steps (fun k => Z.of_nat k * c) _ 0%nat). intros; lia.
Qed.

Theorem spans_exact_cover : forall (px : list pixel) c, 1 <= c ->
  concat (map (get_chunk px) (balance_spans (zlen px) (Some c))) = px.
Proof.
  intros px c Hc. unfold get_chunk.
  assert (Hn : 0 <= zlen px) by (unfold zlen; lia).
  rewrite (chain_concat px 0 _ _ (balance_spans_chain _ _ Hn Hc)) by lia.
  apply slice_all. apply cdiv_bracket. lia.
Qed.

Theorem spans_none_cover : forall (px : list pixel),
  concat (map (get_chunk px) (balance_spans (zlen px) None)) = px.
Proof.
  intros px. simpl. rewrite app_nil_r. unfold get_chunk. simpl. apply slice_all. lia.
Qed.

Lemma partition_chain : forall start stop c, 1 <= c -> start <= stop ->
  Chain start (partition start stop c) stop.
Proof.
  intros start stop c Hc Hle. unfold partition, arange. rewrite map_map.
  destruct (cdiv_bracket (stop - start) c ltac:(lia)) as [Hlt Hge]. set (K := cdiv (stop - start) c) in *.
  (* the span ends are g k = min (start + k c) stop: the clipping only matters for the last one *)
  set (g := fun k => Z.min (start + Z.of_nat k * c) stop).
  rewrite (map_ext_in _ (fun k => (g k, g (S k)))).
  - replace start with (g 0%nat) at 1 by (unfold g; lia). replace stop with (g (0 + Z.to_nat K)%nat) by (unfold g; nia).
    apply chain_steps. intros k. unfold g. lia.
  - intros k Hk. apply in_seq in Hk. unfold g. f_equal; nia.
Qed.

Theorem partition_exact_cover : forall (px : list pixel) plo phi c,
  1 <= c -> 0 <= plo <= phi ->
  concat (map (get_chunk px) (partition plo phi c)) = slice px plo phi.
Proof.
  intros px plo phi c Hc H. unfold get_chunk.
  apply chain_concat; [apply partition_chain; lia | lia].
Qed.

Section Monoid.
  Context {A : Type} (eqA : relation A) {Heq : Equivalence eqA}.
  Context (op : A -> A -> A) {Hop : Proper (eqA ==> eqA ==> eqA) op} (e : A).
  Hypothesis op_assoc : forall x y z, eqA (op x (op y z)) (op (op x y) z).
  Hypothesis op_comm : forall x y, eqA (op x y) (op y x).
  Hypothesis op_unit : forall x, eqA (op e x) x.

  Definition msum (l : list A) : A := fold_right op e l.

  Lemma msum_app : forall l1 l2, eqA (msum (l1 ++ l2)) (op (msum l1) (msum l2)).
  Proof.
    induction l1 as [|x l1 IH]; intros l2; simpl.
    - symmetry. apply op_unit.
    - rewrite IH. apply op_assoc.
  Qed.

  Lemma msum_perm : forall l l', Permutation l l' -> eqA (msum l) (msum l').
  Proof.
    induction 1; simpl.
    - reflexivity.
    - now rewrite IHPermutation.
    - rewrite !op_assoc. now rewrite (op_comm y x).
    - etransitivity; eauto.
  Qed.

  Lemma fold_left_msum : forall l a, eqA (fold_left op l a) (op a (msum l)).
  Proof.
    induction l as [|x l IH]; intros a; simpl.
    - rewrite op_comm. symmetry. apply op_unit.
    - rewrite IH. symmetry. apply op_assoc.
  Qed.

  Lemma msum_concat : forall ls, eqA (msum (map msum ls)) (msum (concat ls)).
  Proof.
    induction ls as [|l ls IH]; simpl; [reflexivity|].
    rewrite msum_app. now rewrite IH.
  Qed.

  Lemma msum_Forall2 : forall l l', Forall2 eqA l l' -> eqA (msum l) (msum l').
  Proof. induction 1; simpl; [reflexivity|]. now apply Hop. Qed.

  (** results of the chunks, delivered in ANY order (and each only up to [eqA]), folded from [init]:
      the monoid sum over all items of all chunks *)
  Theorem reduce_perm_invariant : forall (P : Type) (f : P -> A) (chunks : list (list P)) (rs rs' : list A) (init : A),
    Permutation rs rs' ->
    Forall2 eqA rs' (map (fun c => msum (map f c)) chunks) ->
    eqA (fold_left op rs init) (op init (msum (map f (concat chunks)))).
  Proof.
    intros P f chunks rs rs' init Hp Hf.
    rewrite fold_left_msum. rewrite (msum_perm _ _ Hp). rewrite (msum_Forall2 _ _ Hf).
    rewrite concat_map, <- msum_concat, map_map. reflexivity.
  Qed.

  (** hence two runs with different chunkings of the same items and different completion orders agree *)
  Corollary reduce_chunking_invariant : forall (P : Type) (f : P -> A) (ch1 ch2 : list (list P)) rs1 rs2 init,
    Permutation (concat ch1) (concat ch2) ->
    Permutation rs1 (map (fun c => msum (map f c)) ch1) ->
    Permutation rs2 (map (fun c => msum (map f c)) ch2) ->
    eqA (fold_left op rs1 init) (fold_left op rs2 init).
  Proof.
    intros P f ch1 ch2 rs1 rs2 init Hc H1 H2.
    assert (R : forall l : list A, Forall2 eqA l l) by (induction l; constructor; auto; reflexivity).
    rewrite (reduce_perm_invariant P f ch1 rs1 _ init H1 (R _)),
            (reduce_perm_invariant P f ch2 rs2 _ init H2 (R _)).
    apply Hop; [reflexivity|]. apply msum_perm. now apply Permutation_map.
  Qed.
End Monoid.

Local Open Scope Q_scope.

Definition pipe1 (fs : list (wpx -> wpx)) (w : wpx) : wpx := fold_left (fun x f => f x) fs w.
Definition init1 (p : pixel) : wpx := (fst p, inject_Z (snd p)).

Lemma pipe_map : forall fs l, pipe fs l = map (pipe1 fs) l.
Proof.
  induction fs as [|f fs IH]; intros l; simpl.
  - unfold pipe. simpl. now rewrite map_id.
  - unfold pipe in *. simpl. rewrite IH, map_map. reflexivity.
Qed.

Lemma init_map : forall l, init l = map init1 l.
Proof. reflexivity. Qed.

Lemma marg_at_sum : forall i l, marg_at i l == sumQ (map (contrib i) l).
Proof. intros. unfold marg_at. apply Qred_correct. Qed.

Lemma length_marginalize : forall n l, length (marginalize n l) = n.
Proof. intros. unfold marginalize, zrange. now rewrite !map_length, seq_length. Qed.

Lemma qnth_marginalize : forall n l i, (0 <= i < Z.of_nat n)%Z -> qnth (marginalize n l) i = marg_at i l.
Proof.
  intros n l i Hi. unfold qnth, marginalize.
  rewrite nth_map_zrange by lia. f_equal. lia.
Qed.

Lemma length_vadd : forall a b, length a = length b -> length (vadd a b) = length a.
Proof. intros. unfold vadd. rewrite map_length, combine_length. lia. Qed.

(** position k of an element-wise combination of two lists of equal length, also beyond their end when the
    defaults combine to the default *)
Lemma nth_map_combine {A B C} : forall (f : A * B -> C) da db dc a b k,
  length a = length b -> f (da, db) = dc -> nth k (map f (combine a b)) dc = f (nth k a da, nth k b db).
Proof. intros f da db dc a b k Hl <-. now rewrite map_nth, combine_nth. Qed.

Lemma nth_vadd : forall a b k, length a = length b ->
  nth k (vadd a b) 0 == nth k a 0 + nth k b 0.
Proof. intros a b k Hl. unfold vadd. rewrite (nth_map_combine _ 0 0 0 a b k Hl eq_refl). apply Qred_correct. Qed.

Lemma qnth_reduce : forall n rs init i,
  Forall (fun r => length r = n) rs -> length init = n ->
  qnth (fold_left vadd rs init) i == fold_left Qplus (map (fun r => qnth r i) rs) (qnth init i).
Proof.
  intros n rs. induction rs as [|r rs IH]; intros init i Hf Hl; simpl; [reflexivity|].
  inversion Hf as [|? ? Hr Hrs]; subst.
  rewrite IH; [| assumption | rewrite length_vadd; congruence].
  assert (E : qnth (vadd init r) i == qnth init i + qnth r i) by (apply nth_vadd; congruence).
  generalize (map (fun r0 => qnth r0 i) rs). intros l.
  revert E. generalize (qnth (vadd init r) i) (qnth init i + qnth r i).
  induction l as [|z l IHl]; intros u v E; simpl; [exact E|]. apply IHl. now rewrite E.
Qed.

Lemma qnth_zeros : forall n i, qnth (zeros n) i = 0.
Proof.
  intros n i. unfold qnth, zeros. generalize (Z.to_nat i) as k. induction n as [|n IH]; intros [|k]; simpl; auto.
Qed.

Global Instance Qplus_proper : Proper (Qeq ==> Qeq ==> Qeq) Qplus.
Proof. intros a b H c d H'. now rewrite H, H'. Qed.

(** the per-pixel contribution to marginal [i] after the filters [fs] *)
Definition pcontrib (i : Z) (fs : list (wpx -> wpx)) (p : pixel) : Q := contrib i (pipe1 fs (init1 p)).

Lemma chunk_result_at : forall n fs i (chunk : list pixel), (0 <= i < Z.of_nat n)%Z ->
  qnth (marginalize n (pipe fs (init chunk))) i == sumQ (map (pcontrib i fs) chunk).
Proof.
  intros. rewrite qnth_marginalize by assumption. rewrite marg_at_sum.
  rewrite pipe_map, init_map, !map_map. reflexivity.
Qed.

(** For ANY list of spans, reading back the sub-table [sub] (the whole table when they cover it), and ANY order in
    which the map functor hands back the per-chunk results, the reduced marginal of bin i is the sum over the pixels
    of [sub] of their contribution: the right-hand side mentions neither the spans nor the order. *)
Theorem marg_schedule_invariant : forall n spans fs (px sub : list pixel) rs i,
  concat (map (get_chunk px) spans) = sub ->
  Permutation rs (marg_chunks n spans fs px) ->
  (0 <= i < Z.of_nat n)%Z ->
  qnth (reduce_add n rs) i == sumQ (map (pcontrib i fs) sub).
Proof.
  intros n spans fs px sub rs i Hcov Hperm Hi. unfold reduce_add.
  assert (Hlen : Forall (fun r => length r = n) rs).
  { rewrite Forall_forall. intros r Hr.
    apply (Permutation_in _ Hperm) in Hr. unfold marg_chunks in Hr.
    rewrite in_map_iff in Hr. destruct Hr as [sp [<- _]]. apply length_marginalize. }
  rewrite (qnth_reduce n) by (auto; unfold zeros; now rewrite repeat_length).
  rewrite qnth_zeros.
  pose proof (reduce_perm_invariant Qeq Qplus 0 Qplus_assoc Qplus_comm Qplus_0_l
               pixel (pcontrib i fs) (map (get_chunk px) spans)
               (map (fun r => qnth r i) rs) (map (fun r => qnth r i) (marg_chunks n spans fs px)) 0) as H.
  rewrite H.
  - rewrite Hcov. unfold msum. fold (sumQ (map (pcontrib i fs) sub)). ring.
  - now apply Permutation_map.
  - unfold marg_chunks. rewrite !map_map.
    clear - Hi. induction spans as [|sp spans IH]; simpl; constructor; [|exact IH].
    now apply chunk_result_at.
Qed.

(** two complete runs (any chunk sizes, any completion orders) give the same marginal for every bin *)
Corollary marg_data_only : forall n fs (px : list pixel) c1 c2 rs1 rs2 i,
  (1 <= c1)%Z -> (1 <= c2)%Z ->
  Permutation rs1 (marg_chunks n (balance_spans (zlen px) (Some c1)) fs px) ->
  Permutation rs2 (marg_chunks n (balance_spans (zlen px) (Some c2)) fs px) ->
  (0 <= i < Z.of_nat n)%Z ->
  qnth (reduce_add n rs1) i == qnth (reduce_add n rs2) i.
Proof.
  intros n fs px c1 c2 rs1 rs2 i H1 H2 P1 P2 Hi.
  rewrite (marg_schedule_invariant n _ fs px px rs1 i (spans_exact_cover px c1 H1) P1 Hi).
  rewrite (marg_schedule_invariant n _ fs px px rs2 i (spans_exact_cover px c2 H2) P2 Hi).
  reflexivity.
Qed.

(** chunksize=None reads the table as a single chunk; otherwise the chunk size is at least 1 *)
Definition chunk_ok (chunk : option Z) : Prop := match chunk with Some c => (1 <= c)%Z | None => True end.

Corollary marg_of_spec : forall n fs (px : list pixel) chunk i,
  chunk_ok chunk ->
  (0 <= i < Z.of_nat n)%Z ->
  qnth (marg_of n (balance_spans (zlen px) chunk) fs px) i == sumQ (map (pcontrib i fs) px).
Proof.
  intros n fs px chunk i Hc Hi. unfold marg_of.
  apply (marg_schedule_invariant n (balance_spans (zlen px) chunk) fs px px); auto.
  destruct chunk as [c|]; [now apply spans_exact_cover | apply spans_none_cover].
Qed.

Lemma sumQ_app : forall l1 l2, sumQ (l1 ++ l2) == sumQ l1 + sumQ l2.
Proof. induction l1 as [|x l1 IH]; intros; simpl; [ring | rewrite IH; ring]. Qed.

Lemma sumQ_ext {B} : forall (L : list B) f g, (forall j, In j L -> f j == g j) -> sumQ (map f L) == sumQ (map g L).
Proof.
  induction L as [|x L IH]; intros f g H; simpl; [reflexivity|].
  rewrite (H x) by (now left). rewrite (IH f g); [reflexivity|]. intros; apply H; now right.
Qed.

Lemma sumQ_plus {B} : forall (L : list B) f g, sumQ (map (fun j => f j + g j) L) == sumQ (map f L) + sumQ (map g L).
Proof. induction L as [|x L IH]; intros; simpl; [ring | rewrite IH; ring]. Qed.

Lemma sumQ_scal {B} : forall (L : list B) c f, sumQ (map (fun j => c * f j) L) == c * sumQ (map f L).
Proof. induction L as [|x L IH]; intros; simpl; [ring | rewrite IH; ring]. Qed.

Lemma sumQ_zero {B} : forall (L : list B), sumQ (map (fun _ => 0) L) == 0.
Proof. induction L as [|x L IH]; simpl; [reflexivity | rewrite IH; ring]. Qed.

Lemma sumQ_zero_ext {B} : forall (L : list B) f, (forall x, In x L -> f x == 0) -> sumQ (map f L) == 0.
Proof. intros L f H. rewrite (sumQ_ext L f (fun _ => 0) H). apply sumQ_zero. Qed.

Lemma sumQ_window : forall (g : Z -> Q) (n : nat) lo hi, (0 <= lo)%Z -> (lo <= hi)%Z -> (hi <= Z.of_nat n)%Z ->
  (forall j, (0 <= j < Z.of_nat n)%Z -> ~ (lo <= j < hi)%Z -> g j == 0) ->
  sumQ (map g (zrange 0 n)) == sumQ (map (fun t => g (lo + t)%Z) (zrange 0 (Z.to_nat (hi - lo)))).
Proof.
  intros g n lo hi H0 H1 H2 Hz.
  replace n with (Z.to_nat lo + (Z.to_nat (hi - lo) + (n - Z.to_nat hi)))%nat at 1 by lia.
  rewrite !zrange_app, !map_app, !sumQ_app.
  rewrite (sumQ_zero_ext (zrange 0 _)), (sumQ_zero_ext (zrange (0 + _ + _) _)).
  - unfold zrange. rewrite !map_map, Qplus_0_l, Qplus_0_r. apply sumQ_ext. intros t _.
    replace (0 + Z.of_nat (Z.to_nat lo) + Z.of_nat t)%Z with (lo + (0 + Z.of_nat t))%Z by lia. reflexivity.
  - intros j Hj. apply in_zrange in Hj. apply Hz; lia.
  - intros j Hj. apply in_zrange in Hj. apply Hz; lia.
Qed.

Lemma sumQ_only : forall n k g, (0 <= k < Z.of_nat n)%Z ->
  (forall j, (0 <= j < Z.of_nat n)%Z -> j <> k -> g j == 0) -> sumQ (map g (zrange 0 n)) == g k.
Proof.
  intros n k g Hk Hz. rewrite (sumQ_window g n k (k + 1)) by (try lia; intros j Hj Ho; apply Hz; lia).
  replace (Z.to_nat (k + 1 - k)) with 1%nat by lia. cbn. rewrite Z.add_0_r. ring.
Qed.

Definition ind (w : wpx) (i j : Z) : Q :=
  if (b1 w =? Z.min i j)%Z && (b2 w =? Z.max i j)%Z then dat w else 0.

Lemma dense_cons : forall w l i j, dense (w :: l) i j = ind w i j + dense l i j.
Proof. reflexivity. Qed.

Lemma f_times_parts : forall b w, b1 (f_times b w) = b1 w /\ b2 (f_times b w) = b2 w /\
  dat (f_times b w) = qnth b (b1 w) * qnth b (b2 w) * dat w.
Proof. intros. repeat split. Qed.

Lemma single_rowsum : forall n b w i,
  (b1 w <= b2 w)%Z -> (0 <= b1 w)%Z -> (b2 w < Z.of_nat n)%Z -> (0 <= i < Z.of_nat n)%Z ->
  contrib i (f_times b w) == qnth b i * sumQ (map (fun j => ind w i j * qnth b j) (zrange 0 n)).
Proof.
  intros n b w i Hu Hp Hq Hi. unfold contrib.
  destruct (f_times_parts b w) as [-> [-> ->]].
  set (p := b1 w) in *. set (q := b2 w) in *. set (x := dat w). set (g := fun j => ind w i j * qnth b j).
  (* row i of the one-pixel matrix: the count x in column q when i = p, in column p when i = q, nothing else *)
  assert (Z0 : forall j, ~ (i = p /\ j = q) -> ~ (i = q /\ j = p) -> g j == 0).
  { intros j H1 H2. unfold g, ind. fold p q. destruct (Z.eqb_spec p (Z.min i j)), (Z.eqb_spec q (Z.max i j)); simpl; try ring. lia. }
  assert (Hit : forall j, i = p /\ j = q \/ i = q /\ j = p -> g j == x * qnth b j).
  { intros j H. unfold g, ind. fold p q x. destruct (Z.eqb_spec p (Z.min i j)), (Z.eqb_spec q (Z.max i j)); simpl; try ring; lia. }
  destruct (Z.eqb_spec p i) as [Hpi|Hpi]; [|destruct (Z.eqb_spec q i) as [Hqi|Hqi]].
  - rewrite (sumQ_only n q g), Hit by (try lia; intros j _ Hj; apply Z0; lia).
    destruct (Z.eqb_spec q i), (Z.eqb_spec p q); simpl; subst; try lia; ring.
  - rewrite (sumQ_only n p g), Hit by (try lia; intros j _ Hj; apply Z0; lia).
    destruct (Z.eqb_spec p q); simpl; subst; try lia; ring.
  - rewrite (sumQ_zero_ext _ g) by (intros j _; apply Z0; lia). simpl. ring.
Qed.

Definition UpperIn (n : nat) (l : list wpx) : Prop :=
  Forall (fun w => (b1 w <= b2 w)%Z /\ (0 <= b1 w)%Z /\ (b2 w < Z.of_nat n)%Z) l.

Theorem marg_is_rowsum : forall n b (l : list wpx) i,
  UpperIn n l -> (0 <= i < Z.of_nat n)%Z ->
  marg_at i (map (f_times b) l) == rowsum (dense l) n b i.
Proof.
  intros n b l i Hl Hi. rewrite marg_at_sum. unfold rowsum.
  induction Hl as [|w l [Hu [Hp Hq]] Hl IH]; simpl.
  - rewrite (sumQ_ext _ _ (fun _ => 0)); [rewrite sumQ_zero; ring|]. intros; unfold dense; simpl; ring.
  - rewrite IH. rewrite (single_rowsum n b w i Hu Hp Hq Hi).
    rewrite (sumQ_ext (zrange 0 n) (fun j => dense (w :: l) i j * qnth b j)
               (fun j => ind w i j * qnth b j + dense l i j * qnth b j)).
    + rewrite sumQ_plus. ring.
    + intros j _. rewrite dense_cons. ring.
Qed.

Lemma dense_sym : forall l i j, dense l i j = dense l j i.
Proof. intros. unfold dense. now rewrite Z.min_comm, Z.max_comm. Qed.

Lemma sumQ_nonneg {B} : forall (L : list B) f, (forall j, In j L -> 0 <= f j) -> 0 <= sumQ (map f L).
Proof.
  induction L as [|x L IH]; intros f H; simpl; [apply Qle_refl|].
  assert (0 <= f x) by (apply H; now left).
  assert (0 <= sumQ (map f L)) by (apply IH; intros; apply H; now right). lra.
Qed.

Lemma dense_nonneg : forall l i j, Forall (fun w => 0 <= dat w) l -> 0 <= dense l i j.
Proof.
  intros l i j H. unfold dense. apply sumQ_nonneg. intros w Hw.
  rewrite Forall_forall in H. specialize (H w Hw).
  destruct (_ && _); [assumption | apply Qle_refl].
Qed.

(** filters never touch the bin ids of a pixel *)
Definition keyfix (f : wpx -> wpx) : Prop := forall w, fst (f w) = fst w.

Lemma keyfix_binarize : keyfix f_binarize. Proof. intros w. reflexivity. Qed.
Lemma keyfix_zero_diags : forall d, keyfix (f_zero_diags d).
Proof. intros d w. unfold f_zero_diags. now destruct (_ <? _)%Z. Qed.
Lemma keyfix_zero_trans : forall c, keyfix (f_zero_trans c).
Proof. intros c w. unfold f_zero_trans. now destruct (_ =? _)%Z. Qed.
Lemma keyfix_zero_cis : forall c, keyfix (f_zero_cis c).
Proof. intros c w. unfold f_zero_cis. now destruct (_ =? _)%Z. Qed.
Lemma keyfix_times : forall v, keyfix (f_times v). Proof. intros v w. reflexivity. Qed.

Lemma keyfix_base_filters : forall o chroms, Forall keyfix (base_filters o chroms).
Proof.
  intros o chroms. unfold base_filters. apply Forall_app. split.
  - destruct (o_cis o); constructor; [apply keyfix_zero_trans | constructor].
  - destruct (_ =? _)%Z; constructor; [apply keyfix_zero_diags | constructor].
Qed.

Lemma pipe1_keyfix : forall fs w, Forall keyfix fs -> fst (pipe1 fs w) = fst w.
Proof.
  induction fs as [|f fs IH]; intros w H; simpl; [reflexivity|].
  inversion H; subst. unfold pipe1 in *. simpl. rewrite IH by assumption. auto.
Qed.

Lemma pipe1_bins : forall fs (p : pixel), Forall keyfix fs ->
  b1 (pipe1 fs (init1 p)) = row p /\ b2 (pipe1 fs (init1 p)) = col p.
Proof. intros fs p Hk. unfold b1, b2. now rewrite pipe1_keyfix. Qed.

Lemma pipe1_app : forall fs gs w, pipe1 (fs ++ gs) w = pipe1 gs (pipe1 fs w).
Proof. intros. unfold pipe1. now rewrite fold_left_app. Qed.

(** the filtered, weighted pixels of a table: what the dense matrix F is built from *)
Definition filtered (fs : list (wpx -> wpx)) (px : list pixel) : list wpx := map (fun p => pipe1 fs (init1 p)) px.

Lemma filtered_upper : forall n fs px, Forall keyfix fs ->
  upper_b px = true -> inrange_b (Z.of_nat n) px = true -> UpperIn n (filtered fs px).
Proof.
  intros n fs px Hk Hu Hr. unfold UpperIn, filtered. rewrite Forall_map. rewrite Forall_forall. intros p Hp.
  unfold upper_b in Hu. unfold inrange_b in Hr. rewrite forallb_forall in Hu, Hr.
  specialize (Hu p Hp). specialize (Hr p Hp). destruct (pipe1_bins fs p Hk) as [-> ->]. lia.
Qed.

(** genome-wide sweep of the model: marginal i = row sum i of diag(b) F diag(b), F = dense symmetric
    completion of the filtered upper-triangular pixels (diagonal once), for every chunk size *)
Lemma sum_pcontrib_rowsum : forall n fs (px : list pixel) b i,
  Forall keyfix fs -> upper_b px = true -> inrange_b (Z.of_nat n) px = true -> (0 <= i < Z.of_nat n)%Z ->
  sumQ (map (pcontrib i (fs ++ [f_times b])) px) == rowsum (dense (filtered fs px)) n b i.
Proof.
  intros n fs px b i Hk Hu Hr Hi.
  rewrite <- (marg_is_rowsum n b (filtered fs px) i (filtered_upper n fs px Hk Hu Hr) Hi).
  rewrite marg_at_sum. unfold filtered. rewrite !map_map.
  apply sumQ_ext. intros p _. unfold pcontrib. rewrite pipe1_app. reflexivity.
Qed.

Theorem margf_gw_is_rowsum : forall n chunk fs (px : list pixel) b i,
  chunk_ok chunk ->
  Forall keyfix fs -> upper_b px = true -> inrange_b (Z.of_nat n) px = true ->
  (0 <= i < Z.of_nat n)%Z ->
  qnth (margf_gw n (balance_spans (zlen px) chunk) fs px b) i == rowsum (dense (filtered fs px)) n b i.
Proof.
  intros n chunk fs px b i Hc Hk Hu Hr Hi. unfold margf_gw.
  rewrite marg_of_spec by assumption. now apply sum_pcontrib_rowsum.
Qed.

(** the per-chunk pipeline is local: a pure per-pixel map, so the result for a chunk is determined by the
    chunk alone and splitting a chunk splits the result (no state carried between chunks) *)
Theorem pipeline_local : forall fs (c1 c2 : list pixel),
  pipe fs (init (c1 ++ c2)) = pipe fs (init c1) ++ pipe fs (init c2).
Proof. intros. rewrite !pipe_map, !init_map, !map_app. reflexivity. Qed.

Theorem pipeline_pointwise : forall fs (c : list pixel),
  pipe fs (init c) = map (fun p => pipe1 fs (init1 p)) c.
Proof. intros. now rewrite pipe_map, init_map, map_map. Qed.

Lemma qz_true : forall x, qz x = true <-> x == 0.
Proof. intros. unfold qz. apply Qeq_bool_iff. Qed.

Lemma qz_false : forall x, qz x = false <-> ~ x == 0.
Proof. intros. rewrite <- qz_true. destruct (qz x); split; congruence. Qed.

Lemma Qltb_true : forall x y, Qltb x y = true <-> x < y.
Proof.
  intros. unfold Qltb. rewrite negb_true_iff. rewrite <- not_true_iff_false, Qle_bool_iff. split; intros H.
  - now apply Qnot_le_lt.
  - now apply Qlt_not_le.
Qed.

Lemma in_nzs : forall x m, In x (nzs m) <-> In x m /\ ~ x == 0.
Proof. intros. unfold nzs. rewrite filter_In, negb_true_iff, qz_false. tauto. Qed.

Lemma mean_eq : forall l, mean l == sumQ l / qlen l.
Proof. intros. unfold mean. apply Qred_correct. Qed.

Lemma variance_eq : forall l, variance l == sumQ (map (fun x => (x - mean l) * (x - mean l)) l) / qlen l.
Proof. intros. unfold variance. rewrite mean_eq. unfold qlen, zlen. now rewrite map_length. Qed.

Lemma qlen_pos : forall {B} (l : list B), l <> [] -> 0 < qlen l.
Proof.
  intros B l H. unfold qlen, zlen. destruct l; [congruence|].
  replace 0 with (inject_Z 0) by reflexivity. rewrite <- Zlt_Qlt. simpl length. lia.
Qed.

Lemma sumQ_pos : forall l, l <> [] -> (forall x, In x l -> 0 < x) -> 0 < sumQ l.
Proof.
  induction l as [|x l IH]; intros Hne H; [congruence|]. simpl.
  assert (0 < x) by (apply H; now left).
  destruct l as [|y l]; [simpl; lra|].
  assert (0 < sumQ (y :: l)) by (apply IH; [discriminate | intros; apply H; now right]). lra.
Qed.

Lemma Qdiv_pos : forall a b, 0 < a -> 0 < b -> 0 < a / b.
Proof. intros. apply Qlt_shift_div_l; lra. Qed.

Lemma Qsq_nonneg : forall z : Q, 0 <= z * z.
Proof. intros. nra. Qed.

Lemma sq_inj : forall x y : Q, 0 <= x -> 0 <= y -> x * x == y * y -> x == y.
Proof.
  intros x y Hx Hy H. destruct (Qlt_le_dec x y) as [Hlt|Hge].
  - exfalso. assert (x * x < y * y) by nra. lra.
  - destruct (Qlt_le_dec y x) as [Hlt|Hle]; [|lra]. exfalso. assert (y * y < x * x) by nra. lra.
Qed.

Lemma ratio_bounds : forall mu mk eps, 0 < mk -> mu * (1 - eps) <= mk -> mk <= mu * (1 + eps) ->
  1 <= (mu / mk) * (1 + eps) /\ (mu / mk) * (1 - eps) <= 1.
Proof.
  intros mu mk eps Hk H1 H2. split.
  - apply (Qmult_le_r _ _ mk Hk).
    setoid_replace (mu / mk * (1 + eps) * mk) with (mu * (1 + eps)) by (field; lra). lra.
  - apply (Qmult_le_r _ _ mk Hk).
    setoid_replace (mu / mk * (1 - eps) * mk) with (mu * (1 - eps)) by (field; lra). lra.
Qed.

Lemma Qdiv_band : forall mu e R, 0 < mu -> 0 < e ->
  (mu / e <= mu * R -> 1 / e <= R) /\ (mu * R <= mu / e -> R <= 1 / e).
Proof.
  intros mu e R Hmu He. setoid_replace (mu / e) with (mu * (1 / e)) by (field; lra).
  split; intro H; now apply (Qmult_le_l _ _ mu).
Qed.

Lemma qnth_upd : forall mu m b i, length m = length b ->
  qnth (map (upd mu) (combine m b)) i = upd mu (qnth m i, qnth b i).
Proof. intros mu m b i Hl. unfold qnth. now apply nth_map_combine. Qed.

Lemma upd_eq : forall mu mi bi, ~ mu == 0 ->
  upd mu (mi, bi) == if qz mi then bi else bi * (mu / mi).
Proof.
  intros mu mi bi Hmu. unfold upd. destruct (qz mi) eqn:E; [reflexivity|].
  apply qz_false in E. rewrite Qred_correct. field. split; assumption.
Qed.

Lemma rowsum_nonneg : forall F n b i,
  (forall i j, 0 <= F i j) -> (forall i, 0 <= qnth b i) -> 0 <= rowsum F n b i.
Proof.
  intros F n b i HF Hb. unfold rowsum.
  assert (0 <= sumQ (map (fun j => F i j * qnth b j) (zrange 0 n))).
  { apply sumQ_nonneg. intros j _. specialize (HF i j). specialize (Hb j). nra. }
  specialize (Hb i). nra.
Qed.

Lemma sumQ_term_le {B} : forall (L : list B) f k, (forall j, In j L -> 0 <= f j) -> In k L -> f k <= sumQ (map f L).
Proof.
  induction L as [|x L IH]; intros f k H Hin; [contradiction|]. simpl.
  assert (0 <= f x) by (apply H; now left).
  assert (0 <= sumQ (map f L)) by (apply sumQ_nonneg; intros; apply H; now right).
  destruct Hin as [->|Hin]; [lra|].
  assert (f k <= sumQ (map f L)) by (apply IH; auto; intros; apply H; now right). lra.
Qed.

Lemma sumQ_le {B} : forall (L : list B) f g, (forall j, In j L -> f j <= g j) -> sumQ (map f L) <= sumQ (map g L).
Proof.
  induction L as [|x L IH]; intros f g H; simpl; [apply Qle_refl|].
  assert (f x <= g x) by (apply H; now left).
  assert (sumQ (map f L) <= sumQ (map g L)) by (apply IH; intros; apply H; now right). lra.
Qed.

Lemma Qnz_pos : forall x, 0 <= x -> ~ x == 0 -> 0 < x.
Proof. intros x H0 Hn. destruct (Qlt_le_dec 0 x); [assumption | exfalso; apply Hn; lra]. Qed.

Lemma qnth_nz_in : forall m k, ~ qnth m k == 0 -> In (qnth m k) (nzs m).
Proof.
  intros m k Hk. apply in_nzs. split; [|exact Hk]. unfold qnth in *.
  destruct (Nat.lt_ge_cases (Z.to_nat k) (length m)); [now apply nth_In|]. exfalso. apply Hk. now rewrite nth_overflow.
Qed.

(** non-negative terms t_j, each non-zero one rescaled by a factor c_j with 1/u1 <= c_j <= 1/u2 *)
Lemma sumQ_scaled_band {B} : forall (L : list B) t c u1 u2,
  (forall j, In j L -> 0 <= t j) -> (forall j, In j L -> ~ t j == 0 -> 1 <= c j * u1 /\ c j * u2 <= 1) ->
  sumQ (map t L) <= u1 * sumQ (map (fun j => t j * c j) L) /\ u2 * sumQ (map (fun j => t j * c j) L) <= sumQ (map t L).
Proof.
  intros L t c u1 u2 Ht Hc. rewrite <- !sumQ_scal. split; apply sumQ_le; intros j Hj; pose proof (Ht j Hj);
    (destruct (Qeq_dec (t j) 0) as [E|E]; [rewrite E; lra | destruct (Hc j Hj E); nra]).
Qed.

Lemma qlen_cons {B} : forall (x : B) l, qlen (x :: l) == qlen l + 1.
Proof. intros. unfold qlen, zlen. cbn [length]. rewrite Nat2Z.inj_succ, <- Z.add_1_r, inject_Z_plus. reflexivity. Qed.

Lemma sumQ_sqdev : forall c l,
  sumQ (map (fun x => (x - c) * (x - c)) l) == sumQ (map (fun x => x * x) l) - 2 * c * sumQ l + qlen l * (c * c).
Proof.
  intros c l. induction l as [|x l IH]; [change (qlen (@nil Q)) with 0; simpl; ring|].
  cbn [map sumQ fold_right]. fold (sumQ l) (sumQ (map (fun x => x * x) l)) (sumQ (map (fun x => (x - c) * (x - c)) l)).
  rewrite IH, qlen_cons. ring.
Qed.

Lemma variance_alt : forall l, l <> [] ->
  variance l == sumQ (map (fun x => x * x) l) / qlen l - mean l * mean l.
Proof.
  intros l Hl. rewrite variance_eq, sumQ_sqdev. pose proof (qlen_pos l Hl).
  assert (S : sumQ l == mean l * qlen l) by (rewrite mean_eq; field; lra).
  rewrite S. field. lra.
Qed.

Lemma dev_bound : forall (l : list Q) x, In x l ->
  (x - mean l) * (x - mean l) <= qlen l * variance l.
Proof.
  intros l x Hx. rewrite variance_eq.
  assert (Hne : l <> []) by (intro; subst; contradiction).
  pose proof (qlen_pos l Hne) as HN.
  setoid_replace (qlen l * (sumQ (map (fun x0 => (x0 - mean l) * (x0 - mean l)) l) / qlen l))
    with (sumQ (map (fun x0 => (x0 - mean l) * (x0 - mean l)) l)) by (field; lra).
  apply (sumQ_term_le l (fun y => (y - mean l) * (y - mean l))); [intros; apply Qsq_nonneg | exact Hx].
Qed.

Lemma Qltb_comp : forall x y t, x == y -> Qltb x t = Qltb y t.
Proof. intros x y t H. unfold Qltb. now rewrite H. Qed.

(** The loop as it is run on concrete data.  The variance is by far the largest number of a sweep, and in the
    model a reduced fraction: here it is only compared with [tol], as E[x^2] - E[x]^2 and unreduced; and the run is
    returned as the weights [bp] that entered its last sweep, so that sweep's results are never normalised. *)
Definition sweep_test (tol : Q) (m : list Q) : option (Q * bool) :=
  match nzs m with
  | [] => None
  | nz => let mu := mean nz in Some (mu, Qltb (sumQ (map (fun x => x * x) nz) / qlen nz - mu * mu) tol)
  end.

Fixpoint ic_run (margf : list Q -> list Q) (tol : Q) (fuel : nat) (b : list Q) : option (list Q * Q * bool * nat) :=
  match fuel with
  | O => None
  | S f =>
      let m := margf b in
      match sweep_test tol m with
      | None => None
      | Some (mu, t) =>
          if t then Some (b, mu, true, 1%nat)
          else match f with
               | O => Some (b, mu, false, 1%nat)
               | S _ => match ic_run margf tol f (map (upd mu) (combine m b)) with
                        | Some (bp, mu', t', k) => Some (bp, mu', t', S k)
                        | None => None
                        end
               end
      end
  end.

Lemma sweep_test_spec : forall tol m b mu t, sweep_test tol m = Some (mu, t) ->
  ic_update m b = Some (map (upd mu) (combine m b), variance (nzs m), mu) /\ Qltb (variance (nzs m)) tol = t.
Proof.
  unfold sweep_test, ic_update. intros tol m b mu t. pose proof (variance_alt (nzs m)) as V.
  destruct (nzs m) as [|x nz]; [discriminate|]. intros H. injection H as <- <-.
  split; [reflexivity | apply Qltb_comp, V; discriminate].
Qed.

Theorem ic_run_spec : forall margf tol fuel b bp mu t k, ic_run margf tol fuel b = Some (bp, mu, t, k) ->
  ic_loop margf tol fuel b = Some (map (upd mu) (combine (margf bp) bp), Some mu, variance (nzs (margf bp)), k) /\
  Qltb (variance (nzs (margf bp))) tol = t.
Proof.
  intros margf tol. induction fuel as [|f IH]; intros b bp mu t k H; [discriminate|].
  cbn [ic_run ic_loop] in *. destruct (sweep_test tol (margf b)) as [[mu1 t1]|] eqn:E; [|discriminate].
  destruct (sweep_test_spec _ _ b _ _ E) as [U T]. rewrite U, T.
  destruct t1; [injection H as <- <- <- <-; auto|].
  destruct f as [|f]; [injection H as <- <- <- <-; auto|].
  destruct (ic_run margf tol (S f) _) as [[[[bp2 mu2] t2] k2]|] eqn:E2; [|discriminate].
  injection H as <- <- <- <-. destruct (IH _ _ _ _ _ E2) as [L T2]. now rewrite L.
Qed.

(** Where a run of the loop ends: at some [bp] reached from [b] by sweeps, so that every property [P] which sweeps
    preserve holds of it; either the sweep from [bp] finds no non-zero marginal, or the run returns that sweep's results. *)
Lemma ic_loop_last : forall margf tol (P : list Q -> Prop),
  (forall b b' var mu, P b -> ic_update (margf b) b = Some (b', var, mu) -> P b') ->
  forall fuel b bb s v k, P b -> ic_loop margf tol fuel b = Some (bb, s, v, k) ->
  exists bp, P bp /\
    match s with
    | None => ic_update (margf bp) bp = None /\ bb = bp
    | Some mu => ic_update (margf bp) bp = Some (bb, v, mu)
    end.
Proof.
  intros margf tol P Hstep. induction fuel as [|f IH]; intros b bb s v k Hb H; [discriminate|].
  cbn [ic_loop] in H. destruct (ic_update (margf b) b) as [[[b' var] mu]|] eqn:E.
  - destruct (Qltb var tol); [|destruct (ic_loop margf tol f b') as [[[[bb2 s2] v2] k2]|] eqn:E2].
    2: { injection H as <- <- <- _. exact (IH _ _ _ _ _ (Hstep _ _ _ _ Hb E) E2). }
    (* the sweep from [b] is the last one: the test passed, or the budget is used up *)
    all: injection H as <- <- <- _; exists b; auto.
  - injection H as <- <- _ _. exists b. auto.
Qed.

Lemma ic_update_some : forall m b b' var mu,
  ic_update m b = Some (b', var, mu) ->
  nzs m <> [] /\ mu = mean (nzs m) /\ var = variance (nzs m) /\ b' = map (upd mu) (combine m b).
Proof.
  intros m b b' var mu H. unfold ic_update in H. destruct (nzs m) as [|x l] eqn:E; [discriminate|].
  inversion H; subst. repeat split; congruence.
Qed.

Theorem zero_stays_zero : forall m b b' var mu i,
  ic_update m b = Some (b', var, mu) -> length m = length b ->
  qnth b i == 0 -> qnth b' i == 0.
Proof.
  intros m b b' var mu i H Hl Hz. apply ic_update_some in H. destruct H as [_ [_ [_ ->]]].
  rewrite qnth_upd by assumption. unfold upd. destruct (qz (qnth m i)); [assumption|].
  rewrite Qred_correct, Hz. unfold Qdiv. ring.
Qed.

Definition onth (l : list (option Q)) (i : Z) : option Q := nth (Z.to_nat i) l None.

Section Sweep.
  Variable F : Z -> Z -> Q.
  Variable n : nat.
  Hypothesis F_sym : forall i j, F i j == F j i.
  Hypothesis F_nonneg : forall i j, 0 <= F i j.

  Definition InR (i : Z) : Prop := (0 <= i < Z.of_nat n)%Z.
  Definition NonNeg (b : list Q) : Prop := forall i, 0 <= qnth b i.

  (** marginals given as a list that agrees pointwise (==) with the row sums of diag(b) F diag(b) *)
  Definition MargOf (m b : list Q) : Prop :=
    length m = n /\ forall i, InR i -> qnth m i == rowsum F n b i.

  Lemma inr_zlen : forall m b i, MargOf m b -> InR i -> (0 <= i < zlen m)%Z.
  Proof. intros m b i [Hl _] Hi. unfold zlen, InR in *. lia. Qed.

  Lemma marg_nonneg_all : forall m b i, MargOf m b -> NonNeg b -> 0 <= qnth m i.
  Proof.
    intros m b i HM Hb. destruct (Nat.lt_ge_cases (Z.to_nat i) n) as [Hlt|Hge].
    - assert (E : qnth m i = qnth m (Z.of_nat (Z.to_nat i))) by (unfold qnth; now rewrite Nat2Z.id).
      rewrite E, (proj2 HM) by (unfold InR; lia). now apply rowsum_nonneg.
    - unfold qnth. rewrite nth_overflow; [apply Qle_refl | destruct HM; lia].
  Qed.

  Lemma nz_pos : forall m b x, MargOf m b -> NonNeg b -> In x (nzs m) -> 0 < x.
  Proof.
    intros m b x HM Hb Hx. apply in_nzs in Hx. destruct Hx as [Hin Hnz].
    apply In_nth with (d := 0) in Hin. destruct Hin as [k [Hk <-]].
    apply Qnz_pos; [|exact Hnz]. pose proof (marg_nonneg_all m b (Z.of_nat k) HM Hb) as H0. unfold qnth in H0.
    now rewrite Nat2Z.id in H0.
  Qed.

  Lemma mean_nz_pos : forall m b, MargOf m b -> NonNeg b -> nzs m <> [] -> 0 < mean (nzs m).
  Proof.
    intros m b HM Hb Hne. rewrite mean_eq. apply Qdiv_pos.
    - apply sumQ_pos; [assumption|]. intros x Hx. eapply nz_pos; eauto.
    - now apply qlen_pos.
  Qed.

  (** a sweep multiplies weight k by cf k = mu / m_k, or leaves it alone where the marginal is zero *)
  Definition cf (mu : Q) (m : list Q) (k : Z) : Q := if qz (qnth m k) then 1 else mu / qnth m k.

  Lemma sweep_factor : forall m b b' var mu, MargOf m b -> NonNeg b -> length b = n ->
    ic_update m b = Some (b', var, mu) ->
    0 < mu /\ (forall k, qnth b' k == qnth b k * cf mu m k) /\ (forall k, 0 < cf mu m k).
  Proof.
    intros m b b' var mu HM Hb Hlb Hup. apply ic_update_some in Hup. destruct Hup as [Hne [-> [_ ->]]].
    pose proof (mean_nz_pos m b HM Hb Hne) as Hmu. split; [exact Hmu|]. split; intros k; unfold cf.
    - rewrite qnth_upd by (destruct HM; congruence). rewrite upd_eq by lra. destruct (qz (qnth m k)); ring.
    - destruct (qz (qnth m k)) eqn:E; [lra|]. apply qz_false in E.
      apply Qdiv_pos; [exact Hmu | apply Qnz_pos; [now apply (marg_nonneg_all m b) | exact E]].
  Qed.

  Theorem positive_stays_positive : forall m b b' var mu i,
    MargOf m b -> NonNeg b -> length b = n ->
    ic_update m b = Some (b', var, mu) -> InR i ->
    0 < qnth b i -> 0 < qnth b' i.
  Proof.
    intros m b b' var mu i HM Hb Hlb H Hi Hp. destruct (sweep_factor m b b' var mu HM Hb Hlb H) as [_ [B C]].
    rewrite (B i). specialize (C i). nra.
  Qed.

  (** The key step of the flatness bound.  A non-zero marginal m_k is one of the N = qlen (nzs m) numbers whose
      variance passed the test, so (m_k - mu)^2 <= N var < N tol (dev_bound); with N tol <= (eps mu)^2, which is how
      eps is chosen for a given tol, m_k lies within eps mu of mu, and the factor mu / m_k within the band. *)
  Lemma factor_band : forall m b b' var mu tol eps k,
    MargOf m b -> NonNeg b -> ic_update m b = Some (b', var, mu) ->
    var < tol -> 0 <= eps -> qlen (nzs m) * tol <= eps * eps * mu * mu -> ~ qnth m k == 0 ->
    1 <= cf mu m k * (1 + eps) /\ cf mu m k * (1 - eps) <= 1.
  Proof.
    intros m b b' var mu tol eps k HM Hb Hup Hvar He0 Hbound Hk.
    apply ic_update_some in Hup. destruct Hup as [Hne [Emu [Evar _]]].
    pose proof (qnth_nz_in m k Hk) as Hin.
    assert (Hmu : 0 < mu) by (subst mu; now apply (mean_nz_pos m b)).
    pose proof (dev_bound (nzs m) _ Hin) as Hd. rewrite <- Emu, <- Evar in Hd.
    assert (Hsq : (qnth m k - mu) * (qnth m k - mu) < (eps * mu) * (eps * mu)).
    { assert (qlen (nzs m) * var < qlen (nzs m) * tol) by (apply Qmult_lt_l; [now apply qlen_pos | assumption]).
      setoid_replace (eps * mu * (eps * mu)) with (eps * eps * mu * mu) by ring. lra. }
    assert (He : 0 <= eps * mu) by nra.
    assert (- (eps * mu) < qnth m k - mu /\ qnth m k - mu < eps * mu) as [H1 H2] by (clear - He Hsq; split; nra).
    unfold cf. rewrite (proj2 (qz_false _) Hk). apply ratio_bounds; [now apply (nz_pos m b) | nra | nra].
  Qed.

  Lemma rowsum_as_terms : forall b i, rowsum F n b i == sumQ (map (fun j => qnth b i * F i j * qnth b j) (zrange 0 n)).
  Proof.
    intros. unfold rowsum. rewrite <- sumQ_scal. apply sumQ_ext. intros; ring.
  Qed.

  Lemma term_nonneg : forall b i j, NonNeg b -> 0 <= qnth b i * F i j * qnth b j.
  Proof. intros b i j Hb. pose proof (Hb i). pose proof (Hb j). pose proof (F_nonneg i j). assert (0 <= qnth b i * F i j) by nra. nra. Qed.

  Lemma rowsum_term_le : forall b i j, NonNeg b -> InR j -> qnth b i * F i j * qnth b j <= rowsum F n b i.
  Proof.
    intros b i j Hb Hj. rewrite rowsum_as_terms.
    apply (sumQ_term_le (zrange 0 n) (fun k => qnth b i * F i k * qnth b k)); [|now apply in_zrange].
    intros k _. now apply term_nonneg.
  Qed.

  (** C10.4  flatness bound.  The sweep that passes the test var < tol returns weights b' that are one update
      ahead of the tested marginals m; for every eps in [0,1) with N*tol <= eps^2 * mu^2 the row sums of
      diag(b') F diag(b') on every bin with a non-zero marginal lie in [mu/(1+eps), mu/(1-eps)]. *)
  Theorem flatness_bound : forall m b b' var mu tol eps i,
    MargOf m b -> NonNeg b -> length b = n ->
    ic_update m b = Some (b', var, mu) ->
    var < tol -> 0 <= eps -> eps < 1 ->
    qlen (nzs m) * tol <= eps * eps * mu * mu ->
    InR i -> ~ qnth m i == 0 ->
    mu / (1 + eps) <= rowsum F n b' i /\ rowsum F n b' i <= mu / (1 - eps).
  Proof.
    intros m b b' var mu tol eps i HM Hb Hlb Hup Hvar He0 He1 Hbound Hi Hmi.
    destruct (sweep_factor m b b' var mu HM Hb Hlb Hup) as [Hmu [B C]].
    (* the new row sum is c_i * S, S = sum_j t_j c_j with t_j = b_i F_ij b_j >= 0 and sum_j t_j = m_i *)
    set (t := fun j => qnth b i * F i j * qnth b j).
    set (S := sumQ (map (fun j => t j * cf mu m j) (zrange 0 n))).
    assert (ER : rowsum F n b' i == cf mu m i * S).
    { unfold S. rewrite rowsum_as_terms, <- sumQ_scal. apply sumQ_ext. intros j _. rewrite (B i), (B j). unfold t. ring. }
    assert (Esum : sumQ (map t (zrange 0 n)) == qnth m i).
    { rewrite (proj2 HM i Hi). symmetry. apply rowsum_as_terms. }
    (* a non-zero term t_j has a partner j with a non-zero marginal (F symmetric), whose factor is in the band *)
    assert (Hc : forall j, In j (zrange 0 n) -> ~ t j == 0 ->
                   1 <= cf mu m j * (1 + eps) /\ cf mu m j * (1 - eps) <= 1).
    { intros j Hj Htj. apply in_zrange in Hj. apply (factor_band m b b' var mu tol eps j); auto.
      intro Hmj. apply Htj. pose proof (rowsum_term_le b j i Hb Hi) as Hle.
      rewrite <- (proj2 HM j Hj), Hmj, (F_sym j i) in Hle. pose proof (term_nonneg b i j Hb). unfold t. lra. }
    destruct (sumQ_scaled_band (zrange 0 n) t (cf mu m) (1 + eps) (1 - eps) (fun j _ => term_nonneg b i j Hb) Hc) as [Hlo Hhi].
    fold S in Hlo, Hhi. rewrite Esum in Hlo, Hhi.
    assert (Eci : cf mu m i * qnth m i == mu).
    { unfold cf. rewrite (proj2 (qz_false _) Hmi). field. assumption. }
    pose proof (C i) as Hci. rewrite ER. split.
    - apply Qle_shift_div_r; [lra|].
      assert (cf mu m i * qnth m i <= cf mu m i * ((1 + eps) * S)) by (apply Qmult_le_l; assumption).
      rewrite Eci in H. lra.
    - apply Qle_shift_div_l; [lra|].
      assert (cf mu m i * ((1 - eps) * S) <= cf mu m i * qnth m i) by (apply Qmult_le_l; assumption).
      rewrite Eci in H. lra.
  Qed.

  (** [ZPat b b']: the same bins carry weight zero.  [AllZero b]: no bin has a non-zero row sum, so a sweep finds
      nothing to equalise and the loop reports no scale. *)
  Definition ZPat (b b' : list Q) : Prop := forall i, InR i -> (qnth b i == 0 <-> qnth b' i == 0).
  Definition AllZero (b : list Q) : Prop := forall i, InR i -> rowsum F n b i == 0.

  Lemma zpat_refl : forall b, ZPat b b. Proof. intros b i _. tauto. Qed.
  Lemma zpat_trans : forall a b c, ZPat a b -> ZPat b c -> ZPat a c.
  Proof. intros a b c H1 H2 i Hi. rewrite (H1 i Hi). now apply H2. Qed.
  Lemma zpat_sym : forall a b, ZPat a b -> ZPat b a.
  Proof. intros a b H i Hi. symmetry. now apply H. Qed.

  (** a row sum of non-negative terms is zero iff every term b_i F_ij b_j is, which depends on the zero pattern only *)
  Lemma rowsum_zero_zpat : forall b b' i, NonNeg b -> ZPat b b' -> InR i ->
    rowsum F n b i == 0 -> rowsum F n b' i == 0.
  Proof.
    intros b b' i Hb Hz Hi H0. rewrite rowsum_as_terms. apply sumQ_zero_ext. intros j Hj. apply in_zrange in Hj.
    pose proof (rowsum_term_le b i j Hb Hj). pose proof (term_nonneg b i j Hb).
    assert (E : qnth b i * F i j * qnth b j == 0) by lra.
    destruct (Qmult_integral _ _ E) as [E1|Ej]; [|apply (Hz j Hj) in Ej; rewrite Ej; ring].
    destruct (Qmult_integral _ _ E1) as [Ei|EF]; [apply (Hz i Hi) in Ei; rewrite Ei | rewrite EF]; ring.
  Qed.

  Lemma allzero_zpat : forall b b', NonNeg b -> ZPat b b' -> AllZero b -> AllZero b'.
  Proof. intros b b' Hb Hz Ha i Hi. apply (rowsum_zero_zpat b b'); auto. Qed.

  Lemma nzs_nil_iff : forall m, length m = n -> (nzs m = [] <-> forall i, InR i -> qnth m i == 0).
  Proof.
    intros m Hl. split.
    - intros H i Hi. destruct (Qeq_dec (qnth m i) 0) as [E|E]; [assumption|].
      apply qnth_nz_in in E. rewrite H in E. contradiction.
    - intros H. destruct (nzs m) as [|x l] eqn:E; [reflexivity|].
      assert (Hx : In x (nzs m)) by (rewrite E; now left).
      apply in_nzs in Hx. destruct Hx as [Hin Hnz].
      apply In_nth with (d := 0) in Hin. destruct Hin as [k [Hk <-]].
      exfalso. apply Hnz. specialize (H (Z.of_nat k)). unfold qnth in H. rewrite Nat2Z.id in H.
      apply H. unfold InR. lia.
  Qed.

  Lemma update_none_iff : forall m b, MargOf m b -> (ic_update m b = None <-> AllZero b).
  Proof.
    intros m b HM. unfold ic_update.
    assert (E : nzs m = [] <-> AllZero b).
    { rewrite (nzs_nil_iff m (proj1 HM)). unfold AllZero. destruct HM as [_ HM].
      split; intros H i Hi; [rewrite <- (HM i Hi) | rewrite (HM i Hi)]; now apply H. }
    destruct (nzs m) as [|x l]; split; intros H; try reflexivity; try discriminate.
    - now apply E.
    - apply E in H. discriminate.
  Qed.

  Lemma length_update : forall m b b' var mu, ic_update m b = Some (b', var, mu) -> length m = length b ->
    length b' = length b.
  Proof.
    intros m b b' var mu H Hl. apply ic_update_some in H. destruct H as [_ [_ [_ ->]]].
    rewrite map_length, combine_length. lia.
  Qed.

  Lemma sweep_inv : forall m b b' var mu, MargOf m b -> NonNeg b -> length b = n ->
    ic_update m b = Some (b', var, mu) -> length b' = n /\ NonNeg b' /\ ZPat b b'.
  Proof.
    intros m b b' var mu HM Hb Hl H. destruct (sweep_factor m b b' var mu HM Hb Hl H) as [_ [B C]].
    split; [rewrite (length_update _ _ _ _ _ H); destruct HM; congruence|]. split; intros i; [|intros _]; specialize (C i).
    - rewrite (B i). specialize (Hb i). nra.
    - split; intros E; [rewrite (B i), E; ring|]. rewrite (B i) in E. destruct (Qmult_integral _ _ E); [assumption | lra].
  Qed.

  Variable margf : list Q -> list Q.
  Hypothesis margf_spec : forall b, length b = n -> MargOf (margf b) b.

  (** what a run of the loop preserves: the zero pattern never changes, and a reported scale comes with the
      weights [bp] that entered the last sweep *)
  Theorem loop_inv : forall tol fuel b bb s v k,
    length b = n -> NonNeg b -> ic_loop margf tol fuel b = Some (bb, s, v, k) ->
    length bb = n /\ NonNeg bb /\ ZPat b bb /\ (s = None <-> AllZero b) /\
    (forall mu, s = Some mu ->
       exists bp, length bp = n /\ NonNeg bp /\ ZPat b bp /\ ic_update (margf bp) bp = Some (bb, v, mu)).
  Proof.
    intros tol fuel b bb s v k Hl Hb H.
    set (P := fun bp => length bp = n /\ NonNeg bp /\ ZPat b bp).
    assert (Hstep : forall b1 b' var mu, P b1 -> ic_update (margf b1) b1 = Some (b', var, mu) -> P b').
    { intros b1 b' var mu [L1 [N1 Z1]] E. destruct (sweep_inv _ _ _ _ _ (margf_spec b1 L1) N1 L1 E) as [L' [N' Z']].
      exact (conj L' (conj N' (zpat_trans _ _ _ Z1 Z'))). }
    destruct (ic_loop_last margf tol P Hstep fuel b bb s v k (conj Hl (conj Hb (zpat_refl b))) H) as [bp [[Lp [Np Zp]] Hlast]].
    pose proof (update_none_iff _ _ (margf_spec bp Lp)) as Hnone.
    assert (Hz : AllZero b <-> AllZero bp) by (split; apply allzero_zpat; auto using zpat_sym).
    destruct s as [mu|].
    - destruct (Hstep _ _ _ _ (conj Lp (conj Np Zp)) Hlast) as [L [N Z]]. refine (conj L (conj N (conj Z (conj _ _)))).
      + split; [discriminate|]. intros Ha. apply Hz, Hnone in Ha. congruence.
      + intros mu0 Hs. injection Hs as <-. exists bp. auto.
    - destruct Hlast as [E ->]. refine (conj Lp (conj Np (conj Zp (conj _ _)))); [|discriminate].
      split; [intros _ | reflexivity]. now apply Hz, Hnone.
  Qed.

  (** C10.2  NaN-set characterisation: after the loop a bin is NaN iff it entered with weight 0 (masked) or the
      whole (sub)problem has no non-zero marginal; every other bin has a positive weight *)
  Theorem nan_set : forall tol fuel b bb s v k i,
    length b = n -> NonNeg b -> ic_loop margf tol fuel b = Some (bb, s, v, k) -> InR i ->
    (onth (mark_nan s bb) i = None <-> (AllZero b \/ qnth b i == 0)) /\
    (forall x, onth (mark_nan s bb) i = Some x -> 0 < x /\ x = qnth bb i).
  Proof.
    intros tol fuel b bb s v k i Hl Hb H Hi.
    destruct (loop_inv tol fuel b bb s v k Hl Hb H) as [L [N [Z [S _]]]].
    assert (Hk : (Z.to_nat i < length bb)%nat) by (unfold InR in Hi; lia).
    unfold onth, mark_nan. destruct s as [mu|].
    - assert (Hn : ~ AllZero b) by (intro Ha; apply S in Ha; discriminate).
      rewrite (nth_indep _ None ((fun x => if qz x then None else Some x) 0)) by (now rewrite map_length).
      rewrite (map_nth (fun x => if qz x then None else Some x)). fold (qnth bb i).
      destruct (qz (qnth bb i)) eqn:E.
      + apply qz_true in E. split; [|intros; discriminate]. split; [intros _|reflexivity].
        right. now apply (Z i Hi).
      + apply qz_false in E. split.
        * split; [discriminate|]. intros [Ha|Hz]; [contradiction|]. apply (Z i Hi) in Hz. contradiction.
        * intros x Hx. inversion Hx; subst. split; [|reflexivity]. pose proof (N i). lra.
    - assert (Ha : AllZero b) by (now apply S).
      rewrite (map_nth (fun _ : Q => @None Q) bb 0). split; [tauto | intros; discriminate].
  Qed.

  (** number of bins with a non-zero row sum: the N of the flatness bound, a function of the zero pattern only *)
  Definition nnz_rows (b : list Q) : Q :=
    qlen (filter (fun i => negb (qz (rowsum F n b i))) (zrange 0 n)).

  Lemma list_as_map : forall m : list Q, length m = n -> m = map (qnth m) (zrange 0 n).
  Proof.
    intros m Hl. apply (nth_ext _ _ 0 (qnth m 0)).
    - unfold zrange. now rewrite !map_length, seq_length.
    - intros k Hk. rewrite nth_map_zrange by lia. unfold qnth. now rewrite Z.add_0_l, Nat2Z.id.
  Qed.

  Lemma qz_iff : forall x y, (x == 0 <-> y == 0) -> qz x = qz y.
  Proof.
    intros x y H. destruct (qz x) eqn:Ex, (qz y) eqn:Ey; auto.
    - apply qz_true in Ex. apply qz_false in Ey. tauto.
    - apply qz_true in Ey. apply qz_false in Ex. tauto.
  Qed.

  Lemma nzs_count : forall m b bp, MargOf m bp -> NonNeg b -> NonNeg bp -> ZPat b bp ->
    qlen (nzs m) = nnz_rows b.
  Proof.
    intros m b bp [Hl HM] Hb Hbp Hz. unfold nnz_rows, qlen, zlen. f_equal. f_equal.
    unfold nzs. rewrite (list_as_map m Hl) at 1. rewrite filter_map_swap, map_length.
    f_equal. apply filter_ext_in. intros i Hi. apply in_zrange in Hi. f_equal.
    apply qz_iff. rewrite (HM i Hi). split; apply rowsum_zero_zpat; auto using zpat_sym.
  Qed.

  (** C10.4 on the loop: a run that stops with var < tol returns weights whose row sums lie in the band *)
  Theorem loop_flatness : forall tol fuel b bb mu v k eps i,
    length b = n -> NonNeg b ->
    ic_loop margf tol fuel b = Some (bb, Some mu, v, k) -> v < tol ->
    0 <= eps -> eps < 1 -> nnz_rows b * tol <= eps * eps * mu * mu ->
    InR i -> ~ rowsum F n b i == 0 ->
    mu / (1 + eps) <= rowsum F n bb i /\ rowsum F n bb i <= mu / (1 - eps).
  Proof.
    intros tol fuel b bb mu v k eps i Hl Hb H Hv He0 He1 HN Hi Hnz.
    destruct (loop_inv tol fuel b bb (Some mu) v k Hl Hb H) as [L [N [Z [S P]]]].
    destruct (P mu eq_refl) as [bp [Lp [Np [Zp Up]]]].
    pose proof (margf_spec bp Lp) as HM.
    apply (flatness_bound (margf bp) bp bb v mu tol eps i); auto.
    - rewrite (nzs_count (margf bp) b bp HM Hb Np Zp). exact HN.
    - destruct HM as [_ HM]. rewrite (HM i Hi).
      intro E. apply Hnz. apply (rowsum_zero_zpat bp b); auto using zpat_sym.
  Qed.

  (** the rescaled weights: any non-negative w with w_i^2 * scale = b_i^2 (i.e. w = b / sqrt(scale)) *)
  Theorem rescaled_rowsum : forall (w bb : list Q) mu i, 0 < mu -> NonNeg bb ->
    (forall k, 0 <= qnth w k /\ qnth w k * qnth w k * mu == qnth bb k * qnth bb k) ->
    rowsum F n bb i == mu * rowsum F n w i.
  Proof.
    intros w bb mu i Hmu Hbb Hw. rewrite !rowsum_as_terms. rewrite <- sumQ_scal. apply sumQ_ext. intros j _.
    assert (E : qnth bb i * qnth bb j == mu * (qnth w i * qnth w j)).
    { destruct (Hw i) as [Wi Ei]. destruct (Hw j) as [Wj Ej]. pose proof (Hbb i). pose proof (Hbb j).
      apply sq_inj; [nra | | ].
      - assert (0 <= qnth w i * qnth w j) by nra. nra.
      - setoid_replace (qnth bb i * qnth bb j * (qnth bb i * qnth bb j))
          with ((qnth bb i * qnth bb i) * (qnth bb j * qnth bb j)) by ring.
        rewrite <- Ei, <- Ej. ring. }
    setoid_replace (qnth bb i * F i j * qnth bb j) with (F i j * (qnth bb i * qnth bb j)) by ring.
    rewrite E. ring.
  Qed.

  Theorem loop_flatness_rescaled : forall tol fuel b bb mu v k eps i (w : list Q),
    length b = n -> NonNeg b ->
    ic_loop margf tol fuel b = Some (bb, Some mu, v, k) -> v < tol ->
    0 <= eps -> eps < 1 -> nnz_rows b * tol <= eps * eps * mu * mu ->
    (forall k, 0 <= qnth w k /\ qnth w k * qnth w k * mu == qnth bb k * qnth bb k) ->
    InR i -> ~ rowsum F n b i == 0 ->
    1 / (1 + eps) <= rowsum F n w i /\ rowsum F n w i <= 1 / (1 - eps).
  Proof.
    intros tol fuel b bb mu v k eps i w Hl Hb H Hv He0 He1 HN Hw Hi Hnz.
    destruct (loop_flatness tol fuel b bb mu v k eps i Hl Hb H Hv He0 He1 HN Hi Hnz) as [H1 H2].
    destruct (loop_inv tol fuel b bb (Some mu) v k Hl Hb H) as [L [N [Z [S P]]]].
    destruct (P mu eq_refl) as [bp [Lp [Np [Zp Up]]]].
    assert (Hmu : 0 < mu).
    { apply ic_update_some in Up. destruct Up as [Hne [-> _]]. eapply mean_nz_pos; eauto. }
    rewrite (rescaled_rowsum w bb mu i Hmu N Hw) in H1, H2.
    split; [apply (Qdiv_band mu (1 + eps)) | apply (Qdiv_band mu (1 - eps))]; (lra || assumption).
  Qed.
End Sweep.

Definition datnn (f : wpx -> wpx) : Prop := forall w, 0 <= dat w -> 0 <= dat (f w).

Lemma datnn_binarize : datnn f_binarize.
Proof. intros w _. unfold f_binarize, dat. simpl. destruct (qz (snd w)); lra. Qed.
Lemma datnn_zero_diags : forall d, datnn (f_zero_diags d).
Proof. intros d w H. unfold f_zero_diags. destruct (_ <? _)%Z; [unfold dat; simpl; lra | assumption]. Qed.
Lemma datnn_zero_trans : forall c, datnn (f_zero_trans c).
Proof. intros c w H. unfold f_zero_trans. destruct (_ =? _)%Z; [assumption | unfold dat; simpl; lra]. Qed.
Lemma datnn_zero_cis : forall c, datnn (f_zero_cis c).
Proof. intros c w H. unfold f_zero_cis. destruct (_ =? _)%Z; [unfold dat; simpl; lra | assumption]. Qed.

Lemma datnn_base_filters : forall o chroms, Forall datnn (base_filters o chroms).
Proof.
  intros o chroms. unfold base_filters. apply Forall_app. split.
  - destruct (o_cis o); constructor; [apply datnn_zero_trans | constructor].
  - destruct (_ =? _)%Z; constructor; [apply datnn_zero_diags | constructor].
Qed.

Lemma pipe1_datnn : forall fs w, Forall datnn fs -> 0 <= dat w -> 0 <= dat (pipe1 fs w).
Proof.
  induction fs as [|f fs IH]; intros w H Hw; [exact Hw|].
  inversion H; subst. unfold pipe1 in *. simpl. apply IH; auto.
Qed.

(** well-formed pixel table: upper triangular, bin ids in range, non-negative counts (executable check) *)
Definition good_px (n : nat) (px : list pixel) : bool :=
  upper_b px && inrange_b (Z.of_nat n) px && forallb (fun p => (0 <=? val p)%Z) px.

Lemma good_px_parts : forall n px, good_px n px = true ->
  upper_b px = true /\ inrange_b (Z.of_nat n) px = true /\ forallb (fun p => (0 <=? val p)%Z) px = true.
Proof. intros n px H. unfold good_px in H. apply andb_prop in H as [H Hv]. apply andb_prop in H as [Hu Hr]. auto. Qed.

Lemma filtered_nonneg : forall n fs px, Forall datnn fs -> good_px n px = true ->
  Forall (fun w => 0 <= dat w) (filtered fs px).
Proof.
  intros n fs px Hf Hg. destruct (good_px_parts n px Hg) as [_ [_ Hv]].
  rewrite forallb_forall in Hv. unfold filtered. rewrite Forall_map, Forall_forall. intros p Hp.
  apply pipe1_datnn; [assumption|]. unfold init1, dat. simpl. specialize (Hv p Hp). unfold val in Hv.
  replace 0 with (inject_Z 0) by reflexivity. rewrite <- Zle_Qle. lia.
Qed.

Lemma length_reduce : forall n rs init, Forall (fun r => length r = n) rs -> length init = n ->
  length (fold_left vadd rs init) = n.
Proof.
  intros n rs. induction rs as [|r rs IH]; intros init Hf Hl; simpl; [assumption|].
  inversion Hf; subst. apply IH; [assumption|]. rewrite length_vadd; congruence.
Qed.

Lemma length_marg_of : forall n spans fs px, length (marg_of n spans fs px) = n.
Proof.
  intros. unfold marg_of, reduce_add. apply length_reduce.
  - unfold marg_chunks. rewrite Forall_map, Forall_forall. intros; apply length_marginalize.
  - unfold zeros. apply repeat_length.
Qed.

(** the dense symmetric filtered matrix of a run *)
Definition Fmat (fs : list (wpx -> wpx)) (px : list pixel) : Z -> Z -> Q := dense (filtered fs px).

Lemma Fmat_sym : forall fs px i j, Fmat fs px i j == Fmat fs px j i.
Proof. intros. unfold Fmat. now rewrite dense_sym. Qed.

Lemma Fmat_nonneg : forall n fs px, Forall datnn fs -> good_px n px = true -> forall i j, 0 <= Fmat fs px i j.
Proof. intros. unfold Fmat. apply dense_nonneg. eapply filtered_nonneg; eauto. Qed.

Lemma gw_margof : forall n chunk fs px, chunk_ok chunk -> good_px n px = true -> Forall keyfix fs ->
  forall b, length b = n -> MargOf (Fmat fs px) n (margf_gw n (balance_spans (zlen px) chunk) fs px b) b.
Proof.
  intros n chunk fs px Hc Hg Hk b Hl. split.
  - unfold margf_gw. apply length_marg_of.
  - intros i Hi. destruct (good_px_parts n px Hg) as [Hu [Hr _]]. unfold Fmat. apply margf_gw_is_rowsum; auto.
Qed.

(** trans-only: the loop runs on u = b * cweights over the cis-zeroed matrix T, i.e. on G = diag(cw) T diag(cw) *)
Definition Gmat (c : list Q) (T : Z -> Z -> Q) (i j : Z) : Q := qnth c i * T i j * qnth c j.

Lemma qnth_vmul : forall a b i, length a = length b -> qnth (vmul a b) i == qnth a i * qnth b i.
Proof. intros a b i Hl. unfold qnth, vmul. now rewrite (nth_map_combine _ 0 0 0 a b _ Hl eq_refl). Qed.

Lemma rowsum_vmul : forall T n b c i, length b = length c ->
  rowsum T n (vmul b c) i == rowsum (Gmat c T) n b i.
Proof.
  intros T n b c i Hl. unfold rowsum, Gmat. rewrite (qnth_vmul b c i Hl).
  rewrite <- !sumQ_scal. apply sumQ_ext. intros j _. rewrite (qnth_vmul b c j Hl). ring.
Qed.

Lemma trans_margof : forall n chunk fs chroms offsets px,
  chunk_ok chunk -> good_px n px = true -> Forall keyfix fs ->
  length (cweights n offsets) = n ->
  forall b, length b = n ->
    MargOf (Gmat (cweights n offsets) (Fmat (fs ++ [f_zero_cis chroms]) px)) n
           (margf_trans n (balance_spans (zlen px) chunk) fs chroms offsets px b) b.
Proof.
  intros n chunk fs chroms offsets px Hc Hg Hk Hcw b Hl.
  assert (E : margf_trans n (balance_spans (zlen px) chunk) fs chroms offsets px b =
              margf_gw n (balance_spans (zlen px) chunk) (fs ++ [f_zero_cis chroms]) px (vmul b (cweights n offsets))).
  { unfold margf_trans, margf_gw. now rewrite <- app_assoc. }
  rewrite E.
  assert (Hk' : Forall keyfix (fs ++ [f_zero_cis chroms])).
  { apply Forall_app. split; [assumption|]. constructor; [apply keyfix_zero_cis | constructor]. }
  assert (Hlv : length (vmul b (cweights n offsets)) = n).
  { unfold vmul. rewrite map_length, combine_length. lia. }
  destruct (gw_margof n chunk _ px Hc Hg Hk' _ Hlv) as [L S]. split; [exact L|].
  intros i Hi. rewrite (S i Hi). apply rowsum_vmul. congruence.
Qed.

Lemma Gmat_sym : forall c T, (forall i j, T i j == T j i) -> forall i j, Gmat c T i j == Gmat c T j i.
Proof. intros c T H i j. unfold Gmat. rewrite (H i j). ring. Qed.

Lemma Gmat_nonneg : forall c T, (forall i, 0 <= qnth c i) -> (forall i j, 0 <= T i j) -> forall i j, 0 <= Gmat c T i j.
Proof.
  intros c T Hc HT i j. unfold Gmat. pose proof (Hc i). pose proof (Hc j). pose proof (HT i j).
  assert (0 <= qnth c i * T i j) by nra. nra.
Qed.

Lemma trans_T_nonneg : forall n fs chroms px, Forall datnn fs -> good_px n px = true ->
  forall i j, 0 <= Fmat (fs ++ [f_zero_cis chroms]) px i j.
Proof.
  intros n fs chroms px Hd Hg. apply (Fmat_nonneg n); [|assumption]. apply Forall_app. split; [assumption|].
  constructor; [apply datnn_zero_cis | constructor].
Qed.

(** C10.5  for the returned weights alone the row sums of T are NOT flat within the band when chromosomes
    differ in bin count: a concrete run of the model (chromosomes of 1/2/2 bins, tol = 1/100, three sweeps,
    eps = 1/40 admissible) whose trans row sums differ by more than (1+eps)/(1-eps). Known finding D15. *)
Definition d15_px : list pixel :=
  [(0,1,1); (0,2,1); (0,3,1); (0,4,1); (1,3,2); (1,4,1); (2,3,1); (2,4,2)]%Z.
Definition d15_chroms : list Z := [0; 1; 1; 2; 2]%Z.
Definition d15_offsets : list Z := [0; 1; 3; 5]%Z.
Definition d15_T : Z -> Z -> Q := Fmat [f_zero_cis d15_chroms] d15_px.

Theorem trans_rowsum_refuted :
  exists bb mu v k eps i j,
    ic_loop (margf_trans 5 (balance_spans 8 None) [] d15_chroms d15_offsets d15_px) (1#100) 10 (repeat 1 5)
      = Some (bb, Some mu, v, k) /\
    v < 1#100 /\ 0 <= eps /\ eps < 1 /\
    nnz_rows (Gmat (cweights 5 d15_offsets) d15_T) 5 (repeat 1 5) * (1#100) <= eps * eps * mu * mu /\
    InR 5 i /\ InR 5 j /\
    (1 + eps) / (1 - eps) * rowsum d15_T 5 bb j < rowsum d15_T 5 bb i.
Proof.
  set (run := ic_loop _ _ _ _).
  eassert (H : run = _ /\ _) by (apply ic_run_spec; vm_compute; reflexivity). destruct H as [H T].
  do 4 eexists. exists (1#40), 0%Z, 1%Z. split; [exact H|]. split; [now apply Qltb_true|].
  set (bb := map (upd _) _). (* named, so that the two row sums below share one evaluation of it *)
  split; [lra|]. split; [lra|]. split; [vm_compute; discriminate|].
  split; [unfold InR; lia|]. split; [unfold InR; lia|]. vm_compute. reflexivity.
Qed.

Lemma qnth_mask {A} : forall (cond : A -> bool) (aux : list A) (d : A) (b : list Q) i,
  length aux = length b ->
  qnth (map (fun p => if cond (fst p) then 0 else snd p) (combine aux b)) i
  = if cond (nth (Z.to_nat i) aux d) then 0 else qnth b i.
Proof.
  intros cond aux d b i Hl. unfold qnth.
  apply (nth_map_combine (fun p => if cond (fst p) then 0 else snd p) d 0); [exact Hl | cbn; now destruct (cond d)].
Qed.

(** [b'] is [b] with the bins that satisfy [P] set to zero: what every masking step does *)
Definition Masked (n : nat) (P : Z -> Prop) (b b' : list Q) : Prop :=
  length b' = n /\ (NonNeg b -> NonNeg b') /\ forall i, InR n i -> (qnth b' i == 0 <-> P i \/ qnth b i == 0).

Lemma masked_step {A} : forall n (cond : A -> bool) (aux : list A) (d : A) (b : list Q),
  length aux = n -> length b = n ->
  Masked n (fun i => cond (nth (Z.to_nat i) aux d) = true) b
         (map (fun p => if cond (fst p) then 0 else snd p) (combine aux b)).
Proof.
  intros n cond aux d b La Lb. assert (E := fun i => qnth_mask cond aux d b i (eq_trans La (eq_sym Lb))).
  split; [rewrite map_length, combine_length; lia|]. split.
  - intros Hb i. rewrite E. destruct (cond _); [apply Qle_refl | apply Hb].
  - intros i _. rewrite E. destruct (cond _).
    + split; [now left | reflexivity].
    + split; [now right | now intros [H|H]].
Qed.

Lemma masked_skip : forall n (P : Z -> Prop) b, length b = n -> (forall i, ~ P i) -> Masked n P b b.
Proof. intros n P b Hl HP. split; [exact Hl|]. split; [auto|]. intros i _. specialize (HP i). tauto. Qed.

Lemma masked_iff : forall n (P Q : Z -> Prop) b b', (forall i, InR n i -> (P i <-> Q i)) -> Masked n P b b' -> Masked n Q b b'.
Proof. intros n P Q b b' H [L [N Z]]. split; [exact L|]. split; [exact N|]. intros i Hi. rewrite <- (H i Hi). auto. Qed.

Lemma masked_trans : forall n (P Q : Z -> Prop) a b c,
  Masked n P a b -> (length b = n -> Masked n Q b c) -> Masked n (fun i => P i \/ Q i) a c.
Proof.
  intros n P Q a b c [L1 [N1 Z1]] H. destruct (H L1) as [L2 [N2 Z2]]. split; [exact L2|]. split; [auto|].
  intros i Hi. rewrite (Z2 i Hi), (Z1 i Hi). tauto.
Qed.

Section Masks.
  Variables (o : opts) (n : nat) (chroms offsets : list Z) (px : list pixel).
  Let spans := balance_spans (zlen px) (o_chunk o).
  Let bf := base_filters o chroms.
  Let marg_nnz := marg_of n spans (f_binarize :: bf) px.
  Let marg := marg_of n spans bf px.
  Let nm := norm_marg marg offsets.
  Let c4 := mad_cutoff4 (optpos nm) (o_mad o).
  (* Conditions on the inputs, not facts of the model: a given x0 has one entry per bin (the model does not check
     it), and the offsets chain from 0 to n, which gives Hnm (length_norm_marg, below). *)
  Hypothesis Hx0 : length (x0_bias n (o_x0 o)) = n.
  Hypothesis Hnm : length nm = n.

  Definition masked_nnz (i : Z) : Prop := (0 < o_nnz o)%Z /\ qnth marg_nnz i < inject_Z (o_nnz o).
  Definition masked_count (i : Z) : Prop := o_count o <> 0%Z /\ qnth marg i < inject_Z (o_count o).
  Definition masked_mad (i : Z) : Prop := (0 < o_mad o)%Z /\ mad_masked c4 (nth (Z.to_nat i) nm None) = true.

  Lemma nnz_masked : forall b, length b = n ->
    Masked n masked_nnz b (if (0 <? o_nnz o)%Z then mask_lt marg_nnz (inject_Z (o_nnz o)) b else b).
  Proof.
    intros b Lb. unfold masked_nnz. destruct (Z.ltb_spec 0 (o_nnz o)) as [G|G]; [|apply masked_skip; [exact Lb | lia]].
    refine (masked_iff _ _ _ _ _ _ (masked_step n (fun x => Qltb x (inject_Z (o_nnz o))) marg_nnz 0 b (length_marg_of _ _ _ _) Lb)).
    intros i _. cbv beta. rewrite Qltb_true. fold (qnth marg_nnz i). tauto.
  Qed.

  Lemma count_masked : forall b, length b = n ->
    Masked n masked_count b (if (o_count o =? 0)%Z then b else mask_lt marg (inject_Z (o_count o)) b).
  Proof.
    intros b Lb. unfold masked_count. destruct (Z.eqb_spec (o_count o) 0) as [G|G]; [apply masked_skip; [exact Lb | tauto]|].
    refine (masked_iff _ _ _ _ _ _ (masked_step n (fun x => Qltb x (inject_Z (o_count o))) marg 0 b (length_marg_of _ _ _ _) Lb)).
    intros i _. cbv beta. rewrite Qltb_true. fold (qnth marg i). tauto.
  Qed.

  Lemma mad_masked_step : forall b, length b = n ->
    Masked n masked_mad b (if (0 <? o_mad o)%Z then mask_mad nm (o_mad o) b else b).
  Proof.
    intros b Lb. unfold masked_mad. destruct (Z.ltb_spec 0 (o_mad o)) as [G|G]; [|apply masked_skip; [exact Lb | lia]].
    refine (masked_iff _ _ _ _ _ _ (masked_step n (mad_masked c4) nm None b Hnm Lb)). intros i _. tauto.
  Qed.

  Lemma black_masked : forall b, length b = n -> Masked n (fun i => In i (o_black o)) b (mask_black (o_black o) b).
  Proof.
    intros b Lb.
    refine (masked_iff _ _ _ _ _ _ (masked_step n (fun x => existsb (Z.eqb x) (o_black o)) (zrange 0 (length b)) 0%Z b _ Lb)).
    - intros i Hi. unfold InR in Hi. rewrite Lb, nth_zrange, Z2Nat.id by lia. cbn [Z.add]. rewrite existsb_exists. split.
      + intros [x [Hx He]]. apply Z.eqb_eq in He. now rewrite He.
      + intros H. exists i. split; [assumption | apply Z.eqb_refl].
    - rewrite zrange_length. exact Lb.
  Qed.

  Lemma initial_bias_masked :
    Masked n (fun i => ((masked_nnz i \/ masked_count i) \/ masked_mad i) \/ In i (o_black o))
           (x0_bias n (o_x0 o)) (initial_bias o n chroms offsets px).
  Proof.
    exact (masked_trans _ _ _ _ _ _ (masked_trans _ _ _ _ _ _ (masked_trans _ _ _ _ _ _
             (nnz_masked _ Hx0) (count_masked _)) (mad_masked_step _)) (black_masked _)).
  Qed.

  (** C10.3  a bin enters the loop with weight zero iff its initial weight is zero/NaN or one of the four
      documented filters excludes it *)
  Theorem mask_rules : forall i, InR n i ->
    (qnth (initial_bias o n chroms offsets px) i == 0 <->
       qnth (x0_bias n (o_x0 o)) i == 0 \/ masked_nnz i \/ masked_count i \/ masked_mad i \/ In i (o_black o)).
  Proof. intros i Hi. destruct initial_bias_masked as [_ [_ Z]]. rewrite (Z i Hi). tauto. Qed.

  Theorem initial_bias_length : length (initial_bias o n chroms offsets px) = n.
  Proof. apply initial_bias_masked. Qed.

  Theorem initial_bias_nonneg : NonNeg (x0_bias n (o_x0 o)) -> NonNeg (initial_bias o n chroms offsets px).
  Proof. apply initial_bias_masked. Qed.
End Masks.

Lemma length_norm_chrom : forall marg lohi, length (norm_chrom marg lohi) = length (slice marg (fst lohi) (snd lohi)).
Proof. intros. unfold norm_chrom. destruct (median _); now rewrite map_length. Qed.

Lemma length_concat_map_eq {A B C} : forall (f : A -> list B) (g : A -> list C) l,
  (forall x, length (f x) = length (g x)) -> length (concat (map f l)) = length (concat (map g l)).
Proof. intros f g l H. induction l as [|x l IH]; simpl; [reflexivity|]. now rewrite !app_length, H, IH. Qed.

Lemma length_norm_marg : forall n marg offsets, length marg = n ->
  Chain 0 (combine (removelast offsets) (tl offsets)) (Z.of_nat n) ->
  length (norm_marg marg offsets) = n.
Proof.
  intros n marg offsets Hl Hc. unfold norm_marg.
  rewrite (length_concat_map_eq _ (fun sp => slice marg (fst sp) (snd sp)) _ (length_norm_chrom marg)).
  rewrite (chain_concat marg 0 _ _ Hc) by lia. rewrite slice_all; [assumption | unfold zlen; lia].
Qed.

(** the whole genome-wide run of the model: NaN exactly on masked bins or when there is no data *)
Theorem balance_gw_nan_set : forall o n chroms offsets px rs,
  o_cis o = false -> o_trans o = false -> chunk_ok (o_chunk o) -> good_px n px = true ->
  length (x0_bias n (o_x0 o)) = n -> NonNeg (x0_bias n (o_x0 o)) ->
  Chain 0 (combine (removelast offsets) (tl offsets)) (Z.of_nat n) ->
  balance o n chroms offsets px = Some rs ->
  let b0 := initial_bias o n chroms offsets px in
  let F := Fmat (base_filters o chroms) px in
  exists r, rs = [r] /\
    forall i, InR n i ->
      (onth (c_bias r) i = None <->
         AllZero F n b0 \/ qnth (x0_bias n (o_x0 o)) i == 0 \/ masked_nnz o n chroms px i \/
         masked_count o n chroms px i \/ masked_mad o n chroms offsets px i \/ In i (o_black o)) /\
      (forall x, onth (c_bias r) i = Some x -> 0 < x).
Proof.
  intros o n chroms offsets px rs Hcis Htr Hc Hg Hx0 Hx0n Hoff Hbal b0 F.
  assert (Hnm : length (norm_marg (marg_of n (balance_spans (zlen px) (o_chunk o)) (base_filters o chroms) px) offsets) = n).
  { apply length_norm_marg; [apply length_marg_of | assumption]. }
  pose proof (initial_bias_length o n chroms offsets px Hx0 Hnm) as Lb.
  pose proof (initial_bias_nonneg o n chroms offsets px Hx0 Hnm Hx0n) as Nb.
  unfold balance in Hbal. rewrite Hcis, Htr in Hbal. fold b0 in Hbal, Lb, Nb.
  destruct (ic_loop _ (o_tol o) (o_iters o) b0) as [[[[bb s] v] k]|] eqn:E; [|discriminate].
  inversion Hbal; subst rs. eexists. split; [reflexivity|]. intros i Hi. simpl.
  destruct (nan_set F n (Fmat_nonneg n _ px (datnn_base_filters o chroms) Hg) _
              (gw_margof n (o_chunk o) _ px Hc Hg (keyfix_base_filters o chroms))
              (o_tol o) (o_iters o) b0 bb s v k i Lb Nb E Hi) as [H1 H2].
  split.
  - rewrite H1. unfold b0 at 2. rewrite (mask_rules o n chroms offsets px Hx0 Hnm i Hi). reflexivity.
  - intros x Hx. now destruct (H2 x Hx).
Qed.

Local Open Scope Z_scope.

(** rows sorted: the pixels of rows < t are a prefix *)
Definition rows_sorted (px : list pixel) : Prop := StronglySorted Z.le (map row px).

Lemma sorted_filter_split : forall px t, rows_sorted px ->
  px = filter (fun p => row p <? t) px ++ filter (fun p => negb (row p <? t)) px.
Proof.
  induction px as [|x l IH]; intros t Hs; [reflexivity|].
  unfold rows_sorted in Hs. simpl in Hs. inversion Hs as [|? ? Hl Hx]; subst.
  simpl. destruct (Z.ltb_spec (row x) t) as [Hlt|Hge]; simpl.
  - f_equal. now apply IH.
  - assert (E1 : filter (fun p => row p <? t) l = []).
    { rewrite Forall_map in Hx. clear - Hx Hge. induction l as [|y l IHl]; [reflexivity|]. inversion Hx; subst. simpl.
      destruct (Z.ltb_spec (row y) t); [lia | auto]. }
    assert (E2 : filter (fun p => negb (row p <? t)) l = l).
    { rewrite Forall_map in Hx. clear - Hx Hge. induction l as [|y l IHl]; [reflexivity|]. inversion Hx; subst. simpl.
      destruct (Z.ltb_spec (row y) t); [lia | simpl; f_equal; auto]. }
    now rewrite E1, E2.
Qed.

Lemma slice_prefix_rows : forall px t, rows_sorted px ->
  slice px 0 (bin1_offset px t) = filter (fun p => row p <? t) px /\
  slice px (bin1_offset px t) (zlen px) = filter (fun p => negb (row p <? t)) px.
Proof.
  intros px t Hs. pose proof (sorted_filter_split px t Hs) as E. unfold bin1_offset, slice, zlen.
  set (A := filter (fun p => row p <? t) px) in *. set (B := filter (fun p => negb (row p <? t)) px) in *.
  rewrite Z.sub_0_r, !Nat2Z.id. simpl skipn. split.
  - rewrite E at 1. rewrite firstn_app, Nat.sub_diag, firstn_all. simpl. now rewrite app_nil_r.
  - rewrite E at 2. rewrite skipn_app, Nat.sub_diag, skipn_all. simpl.
    replace (Z.to_nat (Z.of_nat (length px) - Z.of_nat (length A))) with (length B).
    + apply firstn_all.
    + rewrite E at 1. rewrite app_length. lia.
Qed.

(** the bins of [lo, hi) share their chromosome id with no bin outside: then the cis filter zeroes every pixel
    between the block and the rest, and the block's rows of F vanish outside the block (Fmat_cis_zero) *)
Definition BlockSep (chroms : list Z) (n : nat) (lo hi : Z) : Prop :=
  forall a b, lo <= a < hi -> 0 <= b < Z.of_nat n -> (b < lo \/ hi <= b) -> chrom_of chroms a <> chrom_of chroms b.

Lemma cis_dat_zero_bf : forall o chroms (p : pixel), o_cis o = true ->
  chrom_of chroms (row p) <> chrom_of chroms (col p) -> (dat (pipe1 (base_filters o chroms) (init1 p)) == 0)%Q.
Proof.
  intros o chroms [[a b] x] Hcis Hne. unfold row, col in Hne. cbn [fst snd] in Hne.
  assert (E : forall y, f_zero_trans chroms ((a, b), y) = ((a, b), 0%Q)).
  { intros y. unfold f_zero_trans, b1, b2. simpl. destruct (Z.eqb_spec (chrom_of chroms a) (chrom_of chroms b)); [contradiction | reflexivity]. }
  unfold base_filters. rewrite Hcis.
  destruct (o_diags o =? 0); unfold pipe1, init1; simpl; rewrite E.
  - reflexivity.
  - unfold f_zero_diags, b1, b2. simpl. destruct (_ <? _); reflexivity.
Qed.

Lemma keyfix_all : forall o chroms v, Forall keyfix (base_filters o chroms ++ [f_times v]).
Proof.
  intros. apply Forall_app. split; [apply keyfix_base_filters|]. constructor; [apply keyfix_times | constructor].
Qed.

Lemma cis_contrib_outside : forall o chroms n lo hi v (p : pixel) i, o_cis o = true -> BlockSep chroms n lo hi ->
  row p <= col p -> 0 <= row p -> col p < Z.of_nat n ->
  ~ (lo <= row p < hi) -> lo <= i < hi ->
  (pcontrib i (base_filters o chroms ++ [f_times v]) p == 0)%Q.
Proof.
  intros o chroms n lo hi v p i Hcis Hsep Hu H0 Hn Hout Hi. unfold pcontrib, contrib.
  destruct (pipe1_bins _ p (keyfix_all o chroms v)) as [-> ->].
  destruct (Z.eqb_spec (row p) i) as [Heq|Hne]; [exfalso; lia|].
  destruct (Z.eqb_spec (col p) i) as [Hci|Hci]; simpl; [|ring].
  destruct (Z.eqb_spec (row p) (col p)) as [Hrc|Hrc]; simpl; [ring|].
  (* a pixel from another chromosome's rows into column i: zeroed by the cis filter, and [f_times] only scales it *)
  rewrite pipe1_app. unfold pipe1 at 1. cbn [fold_left].
  destruct (f_times_parts v (pipe1 (base_filters o chroms) (init1 p))) as [_ [_ ->]].
  rewrite cis_dat_zero_bf; [ring | assumption |]. apply not_eq_sym, Hsep; lia.
Qed.

Lemma filter_length_le {A} : forall (f g : A -> bool) l, (forall x, f x = true -> g x = true) ->
  (length (filter f l) <= length (filter g l))%nat.
Proof.
  intros f g l H. induction l as [|x l IH]; simpl; [lia|].
  destruct (f x) eqn:Ef; [rewrite (H x Ef); simpl; lia|]. destruct (g x); simpl; lia.
Qed.

Lemma bin1_offset_mono : forall px a b, a <= b -> bin1_offset px a <= bin1_offset px b.
Proof.
  intros px a b Hab. unfold bin1_offset, zlen. apply inj_le. apply filter_length_le. intros x H.
  apply Z.ltb_lt in H. apply Z.ltb_lt. lia.
Qed.

Lemma bin1_offset_bounds : forall px a, 0 <= bin1_offset px a <= zlen px.
Proof.
  intros. unfold bin1_offset, zlen. split; [lia|]. apply inj_le.
  induction px as [|x l IH]; simpl; [lia|]. destruct (row x <? a); simpl; lia.
Qed.

Lemma good_px_forall : forall n px, good_px n px = true ->
  Forall (fun p => row p <= col p /\ 0 <= row p /\ col p < Z.of_nat n) px.
Proof.
  intros n px H. destruct (good_px_parts n px H) as [Hu [Hr _]].
  unfold upper_b in Hu. unfold inrange_b in Hr. rewrite forallb_forall in Hu, Hr.
  rewrite Forall_forall. intros p Hp. specialize (Hu p Hp). specialize (Hr p Hp). lia.
Qed.

(** C10/C11, cis-only: reading only the chromosome's own pixel range [bin1_offset lo, bin1_offset hi) gives the
    same marginals on the chromosome's bins as reading the whole table *)
Lemma cis_range_suffices : forall o chroms n lo hi v (px : list pixel) i,
  o_cis o = true -> BlockSep chroms n lo hi -> good_px n px = true -> rows_sorted px ->
  lo <= hi -> lo <= i < hi ->
  (sumQ (map (pcontrib i (base_filters o chroms ++ [f_times v])) (slice px (bin1_offset px lo) (bin1_offset px hi)))
   == sumQ (map (pcontrib i (base_filters o chroms ++ [f_times v])) px))%Q.
Proof.
  intros o chroms n lo hi v px i Hcis Hsep Hg Hs Hlh Hi.
  set (fs := base_filters o chroms ++ [f_times v]).
  set (plo := bin1_offset px lo). set (phi := bin1_offset px hi).
  pose proof (bin1_offset_bounds px lo) as B1. pose proof (bin1_offset_bounds px hi) as B2.
  pose proof (bin1_offset_mono px lo hi Hlh) as B3. fold plo phi in B1, B2, B3.
  assert (E : px = slice px 0 plo ++ slice px plo phi ++ slice px phi (zlen px)).
  { rewrite <- (slice_split px plo phi (zlen px)), <- (slice_split px 0 plo (zlen px)) by lia.
    symmetry. apply slice_all. lia. }
  destruct (slice_prefix_rows px lo Hs) as [P1 _]. destruct (slice_prefix_rows px hi Hs) as [_ P2].
  fold plo in P1. fold phi in P2.
  pose proof (good_px_forall n px Hg) as Hgood. rewrite Forall_forall in Hgood.
  assert (Out : forall p, In p px -> ~ lo <= row p < hi -> (pcontrib i fs p == 0)%Q).
  { intros p Hin Hr. destruct (Hgood p Hin) as [G1 [G2 G3]]. now apply (cis_contrib_outside o chroms n lo hi v p i). }
  rewrite E at 2. rewrite !map_app, !sumQ_app, (sumQ_zero_ext (slice px 0 plo)), (sumQ_zero_ext (slice px phi _)); [ring | |];
    intros p Hp; [rewrite P2 in Hp | rewrite P1 in Hp]; apply filter_In in Hp; destruct Hp as [Hin Hr]; apply Out; auto; lia.
Qed.

Lemma Fmat_cis_zero : forall o chroms n lo hi (px : list pixel) i j,
  o_cis o = true -> BlockSep chroms n lo hi -> lo <= i < hi -> 0 <= j < Z.of_nat n -> ~ (lo <= j < hi) ->
  (Fmat (base_filters o chroms) px i j == 0)%Q.
Proof.
  intros o chroms n lo hi px i j Hcis Hsep Hi Hj Hout. unfold Fmat, dense, filtered. rewrite map_map.
  apply sumQ_zero_ext. intros p _. cbv beta.
  destruct (pipe1_bins _ p (keyfix_base_filters o chroms)) as [-> ->].
  destruct (Z.eqb_spec (row p) (Z.min i j)) as [Hr|Hr]; simpl; [|reflexivity].
  destruct (Z.eqb_spec (col p) (Z.max i j)) as [Hc|Hc]; simpl; [|reflexivity].
  apply cis_dat_zero_bf; [assumption|]. rewrite Hr, Hc.
  destruct (Z.le_ge_cases i j) as [Hij|Hij].
  - rewrite Z.min_l, Z.max_r by lia. apply Hsep; lia.
  - rewrite Z.min_r, Z.max_l by lia. apply not_eq_sym, Hsep; lia.
Qed.

Lemma qnth_splice : forall (full seg : list Q) lo hi t,
  0 <= lo -> lo <= zlen full -> 0 <= t < zlen seg ->
  qnth (splice full lo hi seg) (lo + t) = qnth seg t.
Proof.
  intros full seg lo hi t Hlo Hlf Ht. unfold qnth, splice, zlen in *.
  assert (Lf : length (firstn (Z.to_nat lo) full) = Z.to_nat lo) by (rewrite firstn_length; lia).
  rewrite app_nth2 by lia. rewrite Lf.
  replace (Z.to_nat (lo + t) - Z.to_nat lo)%nat with (Z.to_nat t) by lia.
  apply app_nth1. lia.
Qed.

Lemma length_splice : forall (full seg : list Q) lo hi,
  0 <= lo <= hi -> hi <= zlen full -> zlen seg = hi - lo -> length (splice full lo hi seg) = length full.
Proof.
  intros full seg lo hi H1 H2 H3. unfold splice, zlen in *. rewrite !app_length, firstn_length, skipn_length. lia.
Qed.

Lemma qnth_slice : forall (M : list Q) lo hi t, 0 <= lo -> 0 <= t < hi - lo -> qnth (slice M lo hi) t = qnth M (lo + t).
Proof.
  intros M lo hi t Hlo Ht. now apply nth_slice.
Qed.

Lemma rowsum_block : forall (F : Z -> Z -> Q) (n : nat) (full seg : list Q) (lo hi i' : Z),
  0 <= lo -> lo <= hi -> hi <= Z.of_nat n -> length full = n -> zlen seg = hi - lo ->
  (forall j, 0 <= j < Z.of_nat n -> ~ lo <= j < hi -> (F (lo + i')%Z j == 0)%Q) ->
  0 <= i' < hi - lo ->
  (rowsum F n (splice full lo hi seg) (lo + i') ==
   rowsum (fun a b => F (lo + a)%Z (lo + b)%Z) (Z.to_nat (hi - lo)) seg i')%Q.
Proof.
  intros F n full seg lo hi i' H0 H1 H2 Hlf Hls Hz Hi. unfold rowsum.
  rewrite (qnth_splice full seg lo hi i') by (unfold zlen in *; lia).
  rewrite (sumQ_window (fun j => (F (lo + i')%Z j * qnth (splice full lo hi seg) j)%Q) n lo hi H0 H1 H2)
    by (intros j Hj Hout; rewrite (Hz j Hj Hout); ring).
  apply Qmult_comp; [reflexivity|]. apply sumQ_ext. intros t Ht. apply in_zrange in Ht.
  rewrite qnth_splice by (unfold zlen in *; lia). reflexivity.
Qed.

Lemma sum_pcontrib_Fmat : forall n fs (px : list pixel) b i,
  Forall keyfix fs -> good_px n px = true -> 0 <= i < Z.of_nat n ->
  (sumQ (map (pcontrib i (fs ++ [f_times b])) px) == rowsum (Fmat fs px) n b i)%Q.
Proof. intros n fs px b i Hk Hg Hi. destruct (good_px_parts n px Hg) as [Hu [Hr _]]. unfold Fmat. now apply sum_pcontrib_rowsum. Qed.

Theorem cis_margof : forall o chroms (n : nat) c lo hi (px : list pixel) (full : list Q),
  o_cis o = true -> 1 <= c -> BlockSep chroms n lo hi -> good_px n px = true -> rows_sorted px ->
  0 <= lo -> lo <= hi -> hi <= Z.of_nat n -> length full = n ->
  forall seg, length seg = Z.to_nat (hi - lo) ->
    MargOf (fun a b => Fmat (base_filters o chroms) px (lo + a) (lo + b)) (Z.to_nat (hi - lo))
           (margf_cis n c (base_filters o chroms) px full lo hi seg) seg.
Proof.
  intros o chroms n c lo hi px full Hcis Hc Hsep Hg Hs H0 H1 H2 Hlf seg Hls.
  unfold margf_cis. set (bf := base_filters o chroms).
  set (v := splice full lo hi seg).
  set (M := marg_of n (partition (bin1_offset px lo) (bin1_offset px hi) c) (bf ++ [f_times v]) px).
  assert (LM : length M = n) by apply length_marg_of.
  split.
  - unfold slice. rewrite firstn_length, skipn_length. lia.
  - intros i' Hi. unfold InR in Hi.
    rewrite qnth_slice by lia.
    assert (Hi2 : 0 <= lo + i' < Z.of_nat n) by lia.
    unfold M, marg_of.
    pose proof (bin1_offset_bounds px lo) as B1. pose proof (bin1_offset_mono px lo hi H1) as B3.
    rewrite (marg_schedule_invariant n _ (bf ++ [f_times v]) px
               (slice px (bin1_offset px lo) (bin1_offset px hi)) _ (lo + i')
               (partition_exact_cover px _ _ c Hc (conj (proj1 B1) B3)) (Permutation_refl _) Hi2).
    unfold bf. rewrite (cis_range_suffices o chroms n lo hi v px (lo + i')) by (auto; lia).
    rewrite (sum_pcontrib_Fmat n _ px v (lo + i') (keyfix_base_filters o chroms) Hg Hi2).
    unfold v. apply rowsum_block; auto; try lia.
    + unfold zlen. lia.
    + intros j Hj Hout. apply (Fmat_cis_zero o chroms n lo hi px); auto. lia.
Qed.

Lemma ic_loop_length : forall (margf : list Q -> list Q) tol (m : nat),
  (forall b, length b = m -> length (margf b) = m) ->
  forall fuel b bb s v k, length b = m -> ic_loop margf tol fuel b = Some (bb, s, v, k) -> length bb = m.
Proof.
  intros margf tol m Hm fuel b bb s v k Lb E.
  assert (Hstep : forall b1 b' var mu, length b1 = m -> ic_update (margf b1) b1 = Some (b', var, mu) -> length b' = m).
  { intros b1 b' var mu L1 Eu. rewrite (length_update _ _ _ _ _ Eu); [exact L1 | rewrite Hm; auto]. }
  destruct (ic_loop_last margf tol _ Hstep fuel b bb s v k Lb E) as [bp [Lp Hlast]].
  destruct s; [exact (Hstep _ _ _ _ Lp Hlast) | destruct Hlast as [_ ->]; exact Lp].
Qed.

(** the sequential per-chromosome driver: every reported chromosome result is the outcome of the loop of that
    chromosome started from its own slice of some full weight vector of length n *)
Theorem cis_loop_spec : forall o (n : nat) c bf px ranges full rs,
  length full = n ->
  Forall (fun lohi => 0 <= fst lohi /\ fst lohi <= snd lohi /\ snd lohi <= Z.of_nat n) ranges ->
  (forall lo hi full' seg, length full' = n -> length seg = Z.to_nat (hi - lo) -> In (lo, hi) ranges ->
      length (margf_cis n c bf px full' lo hi seg) = Z.to_nat (hi - lo)) ->
  cis_loop o n c bf px full ranges = Some rs ->
  Forall2 (fun lohi r => exists full' bb s v k,
             length full' = n /\
             ic_loop (margf_cis n c bf px full' (fst lohi) (snd lohi)) (o_tol o) (o_iters o)
                     (slice full' (fst lohi) (snd lohi)) = Some (bb, s, v, k) /\
             c_bias r = mark_nan s bb /\ c_scale r = s /\ c_var r = v /\ c_iters r = k) ranges rs.
Proof.
  intros o n c bf px ranges. induction ranges as [|[lo hi] rest IH]; intros full rs Hlf Hr Hlen Hloop; simpl in Hloop.
  - inversion Hloop. constructor.
  - inversion_clear Hr as [|? ? [A0 [A1 A2]] Hr']. simpl in A0, A1, A2.
    destruct (ic_loop (margf_cis n c bf px full lo hi) (o_tol o) (o_iters o) (slice full lo hi))
      as [[[[seg s] v] k]|] eqn:E; [|discriminate].
    destruct (cis_loop o n c bf px (splice full lo hi seg) rest) as [rs'|] eqn:E2; [|discriminate].
    injection Hloop as <-. constructor.
    + exists full, seg, s, v, k. simpl. repeat split; auto.
    + apply (IH (splice full lo hi seg)); auto.
      * assert (Lseg : length seg = Z.to_nat (hi - lo)).
        { apply (ic_loop_length (margf_cis n c bf px full lo hi) (o_tol o) (Z.to_nat (hi - lo))) with
            (fuel := o_iters o) (b := slice full lo hi) (s := s) (v := v) (k := k); auto.
          - intros b Hb. apply Hlen; auto. now left.
          - unfold slice. rewrite firstn_length, skipn_length. lia. }
        rewrite length_splice; unfold zlen; lia.
      * intros lo' hi' full' seg' Hf' Hs' Hin. apply Hlen; auto. now right.
Qed.

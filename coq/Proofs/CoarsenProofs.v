(** C08, coarsen_cooler (Model/Coarsen.v).  The coarse-row edges are the cuts of the pixel list at the first rows of
    the groups of k bins, each of which splits the index table, so the chunk stream is ONE group-by of the re-keyed
    pixels, for any value type and aggregation; the summed count of Model/Pixels.v is the instance agg = sumZ.  The new
    bin table block by block, re-binning by start coordinate = by index, and composition k1 then k2 = k1*k2.
    In order:
    - strides, np.unique, searchsorted; [prune_subsequence]
    - [chunks_canon]; [cut_at] and bin1_offset; aligned cuts, the index table ([index_table_from], [group_starts]);
      Section Edges: [coarse_edges_facts]
    - the bin table: [coarsen_group_spec], [coarsen_block_tiled], [coarsen_bins_spec]
    - searchsorted over absolute start coordinates ([ssr_sa]); Section Rebin: [rebin_eq_index]
    - [index_table_compose], [coarsen_block_compose]
    - Section GenericExact (any value type and aggregation): [coarsen_exact], [coarsen_cooler_g_valid]; the sumZ
      instance, [coarsen_canon]
    - the two laws of an aggregation; Section GenericCompose: [groupby_mapkey], [coarsen_compose_g]; sum, max
      and min obey the laws (Section Extremum); [coarsen_merge_commute], [coarsen_compose] *)
From Cooler Require Import Model.Coarsen Proofs.BinsProofs Proofs.PixelsProofs Proofs.GroupBy Proofs.CoarsenGroupBy.
From Coq Require Import Sorted Permutation ZifyBool.

Lemma sorted_ends l a b : StronglySorted Z.le l -> In a l -> In b l ->
  (forall x, In x l -> a <= x <= b) -> hd 0 l = a /\ last l 0 = b.
Proof.
  intros HS Ha Hb H. pose proof (sorted_le_last l 0 HS b Hb) as Hlast.
  destruct HS as [|z l _ Hall]; [inversion Ha|]. rewrite Forall_forall in Hall. split.
  - destruct Ha as [Ha|Ha]; [exact Ha|]. specialize (Hall a Ha). specialize (H z (or_introl eq_refl)). cbn. lia.
  - rewrite last_cons in *. specialize (H _ (last_in l z)). lia.
Qed.

Lemma stride_n_nth {A} (k : nat) : (1 <= k)%nat ->
  forall fuel (l : list A) q, (length l <= fuel)%nat ->
  nth_error (stride_n fuel k l) q = nth_error l (q * k).
Proof.
  intros Hk. induction fuel as [|f IH]; intros l q Hf.
  - destruct l; [|cbn in Hf; lia]. cbn. now rewrite !nth_error_nil'.
  - destruct l as [|x l]; [cbn; now rewrite !nth_error_nil'|].
    cbn [stride_n]. destruct q as [|q]; [reflexivity|].
    cbn [nth_error]. rewrite IH.
    + rewrite nth_error_skipn. reflexivity.
    + rewrite skipn_length. cbn [length] in *. lia.
Qed.

Lemma stride_nth {A} (k : Z) (l : list A) q : 1 <= k ->
  nth_error (stride k l) q = nth_error l (Z.to_nat (Z.of_nat q * k)).
Proof. intros Hk. unfold stride. rewrite stride_n_nth by lia. f_equal. nia. Qed.

(** l[lo:hi][::k] = [l[lo + q*k] for q < ceil((hi - lo) / k)] *)
Lemma stride_slice {A} (l : list A) d lo hi k : 1 <= k -> 0 <= lo <= hi -> hi <= zlen l ->
  stride k (slice l lo hi) =
  map (fun q => nth (Z.to_nat (lo + q * k)) l d) (zrange 0 (Z.to_nat (cdiv (hi - lo) k))).
Proof.
  intros Hk Hlo Hhi. apply nth_error_ext'. intros q. unfold slice, zlen in *.
  rewrite stride_nth, nth_error_firstn, nth_error_skipn, nth_error_map by exact Hk.
  pose proof (cdiv_le_iff (hi - lo) k (Z.of_nat q) ltac:(lia)) as Hq.
  assert (0 <= Z.of_nat q * k) by nia.
  destruct (Z_lt_le_dec (Z.of_nat q) (cdiv (hi - lo) k)) as [Hlt|Hge].
  - rewrite nth_error_zrange, (proj2 (Nat.ltb_lt _ _)) by lia. cbn [option_map].
    rewrite (nth_error_nth' l d) by lia. do 2 f_equal. lia.
  - rewrite (proj2 (nth_error_None (zrange 0 _) q)) by (rewrite zrange_length; lia).
    now rewrite (proj2 (Nat.ltb_ge _ _)) by lia.
Qed.

Lemma stride_all {A} (l : list A) d k : 1 <= k ->
  stride k l = map (fun q => nth (Z.to_nat (q * k)) l d) (zrange 0 (Z.to_nat (cdiv (zlen l) k))).
Proof.
  intros Hk. rewrite <- (slice_all l (zlen l)) at 1 by lia.
  rewrite (stride_slice l d 0 (zlen l) k), Z.sub_0_r by (pose proof (zlen_nonneg l); lia). reflexivity.
Qed.

Lemma cumsum_diff l : forall a, cumsum_from a (diff (a :: l)) = l.
Proof.
  induction l as [|b r IH]; intros a; [reflexivity|].
  cbn [diff cumsum_from]. replace (a + (b - a)) with b by lia. f_equal. apply IH.
Qed.

Lemma uniq_ins_in x l y : In y (uniq_ins x l) <-> y = x \/ In y l.
Proof.
  induction l as [|z r IH]; cbn [uniq_ins]; [cbn; intuition|].
  destruct (x <? z) eqn:E1; [cbn; intuition|].
  destruct (x =? z) eqn:E2.
  - assert (x = z) by lia. subst. cbn. intuition.
  - cbn [In]. rewrite IH. intuition.
Qed.

Lemma uniq_ins_sorted x l : StronglySorted Z.lt l -> StronglySorted Z.lt (uniq_ins x l).
Proof.
  induction l as [|z r IH]; intros HS; cbn [uniq_ins].
  - constructor; constructor.
  - inversion HS as [|? ? Hr Hall]; subst.
    destruct (x <? z) eqn:E1.
    + constructor; [exact HS|]. constructor; [lia|].
      eapply Forall_impl; [|exact Hall]. intros; lia.
    + destruct (x =? z) eqn:E2; [exact HS|].
      constructor; [now apply IH|].
      apply Forall_forall. intros y Hy. apply uniq_ins_in in Hy as [->|Hy]; [lia|].
      rewrite Forall_forall in Hall. now apply Hall.
Qed.

Lemma np_unique_in l y : In y (np_unique l) <-> In y l.
Proof.
  induction l as [|x r IH]; [reflexivity|]. cbn [np_unique fold_right].
  change (fold_right uniq_ins [] r) with (np_unique r). rewrite uniq_ins_in, IH. cbn. intuition.
Qed.

Lemma np_unique_sorted l : StronglySorted Z.lt (np_unique l).
Proof.
  induction l as [|x r IH]; [constructor|]. cbn [np_unique fold_right].
  apply uniq_ins_sorted. exact IH.
Qed.

(** first position whose element is >= x : no sortedness needed for these facts *)
Lemma ssl_range l x : 0 <= searchsorted_left l x <= zlen l.
Proof.
  unfold zlen. induction l as [|y r IH]; cbn [searchsorted_left length]; [lia|].
  destruct (y <? x); lia.
Qed.

Lemma ssl_before l x : forall i, (Z.of_nat i < searchsorted_left l x) -> nth i l 0 < x.
Proof.
  induction l as [|y r IH]; intros i Hi; cbn [searchsorted_left] in Hi; [lia|].
  destruct (y <? x) eqn:E; [|lia].
  destruct i as [|i]; cbn [nth]; [lia|]. apply IH. lia.
Qed.

Lemma ssl_at l x : searchsorted_left l x < zlen l -> x <= nth (Z.to_nat (searchsorted_left l x)) l 0.
Proof.
  unfold zlen. induction l as [|y r IH]; cbn [searchsorted_left length]; intros H; [lia|].
  destruct (y <? x) eqn:E.
  - pose proof (ssl_range r x) as Hr.
    replace (Z.to_nat (1 + searchsorted_left r x)) with (S (Z.to_nat (searchsorted_left r x))) by lia.
    cbn [nth]. apply IH. lia.
  - cbn. lia.
Qed.

Lemma ssl_lt_len l x : l <> [] -> x <= last l 0 -> searchsorted_left l x < zlen l.
Proof.
  intros Hne Hx. pose proof (ssl_range l x) as Hr.
  destruct (Z.eq_dec (searchsorted_left l x) (zlen l)) as [E|E]; [exfalso|lia]. unfold zlen in *.
  assert (length l <> 0)%nat by (destruct l; [congruence|discriminate]).
  pose proof (ssl_before l x (length l - 1)%nat ltac:(lia)). rewrite last_nth in Hx. lia.
Qed.

Lemma prune_unfold rest maxlen :
  greedy_prune_partition (0 :: rest) maxlen =
  map (fun i => znth (0 :: rest) i 0)
    (np_unique (map (searchsorted_left (0 :: rest))
       (map (fun i => maxlen * i) (zrange 0 (Z.to_nat (cdiv (last (0 :: rest) 0) maxlen))) ++ [last (0 :: rest) 0]))).
Proof. unfold greedy_prune_partition, cumsum. rewrite cumsum_diff. reflexivity. Qed.

(** _greedy_prune_partition: the pruned edges are a sub-sequence (strictly increasing positions) of
    the given edges, begin with 0, end with the total, and are strictly increasing in value — for
    every non-decreasing edge list from 0 and every maxlen >= 1 *)
Theorem prune_subsequence rest maxlen :
  let edges := 0 :: rest in
  StronglySorted Z.le edges -> 1 <= maxlen ->
  let p := greedy_prune_partition edges maxlen in
  (exists idx, p = map (fun i => znth edges i 0) idx /\ StronglySorted Z.lt idx /\
               Forall (fun i => 0 <= i < zlen edges) idx) /\
  hd 0 p = 0 /\ last p 0 = last edges 0 /\ StronglySorted Z.lt p.
Proof.
  intros edges HS Hm. cbv zeta. unfold edges. rewrite prune_unfold. fold edges.
  set (total := last edges 0).
  set (cuts := map (fun i => maxlen * i) (zrange 0 (Z.to_nat (cdiv total maxlen))) ++ [total]).
  set (pos := searchsorted_left edges). set (idx := np_unique (map pos cuts)).
  assert (Hedges : forall x, In x edges -> 0 <= x <= total).
  { intros x Hx. split; [|now apply sorted_le_last]. apply StronglySorted_inv in HS as [_ H0].
    rewrite Forall_forall in H0. destruct Hx as [<-|Hx]; [lia|auto]. }
  assert (Htot : In total cuts) by (apply in_or_app; right; now left).
  assert (Hlast : In total edges) by (unfold total, edges; rewrite last_cons; apply last_in).
  assert (Hcuts : forall c, In c cuts -> 0 <= c <= total).
  { intros c Hc. apply in_app_or in Hc as [Hc|[<-|[]]]; [|now apply Hedges].
    apply in_map_iff in Hc as [i [<- Hi]]. apply in_zrange in Hi.
    pose proof (cdiv_le_iff total maxlen i ltac:(lia)). nia. }
  assert (Hidx : forall i, In i idx <-> exists c, In c cuts /\ i = pos c).
  { intros i. unfold idx. rewrite np_unique_in, in_map_iff. split; intros (c & A & B); eauto. }
  assert (Hrange : forall i, In i idx -> 0 <= i < zlen edges).
  { intros i Hi. apply Hidx in Hi as (c & Hc & ->). split; [apply ssl_range|].
    apply ssl_lt_len; [discriminate|]. now apply Hcuts. }
  (* the entry at a cut's position is the first one >= the cut *)
  assert (Hmono : forall i j, In i idx -> In j idx -> i < j -> znth edges i 0 < znth edges j 0).
  { intros i j Hi Hj Hij. pose proof (Hrange _ Hi). pose proof (Hrange _ Hj). apply Hidx in Hj as (c & Hc & ->).
    pose proof (ssl_before edges c (Z.to_nat i) ltac:(unfold pos in *; lia)).
    pose proof (ssl_at edges c ltac:(unfold pos in *; lia)). unfold znth, pos in *. lia. }
  assert (Hp : StronglySorted Z.lt (map (fun i => znth edges i 0) idx)) by (apply (ssorted_map Z.lt); [apply np_unique_sorted|exact Hmono]).
  split; [exists idx; split; [reflexivity|]; split; [apply np_unique_sorted|now apply Forall_forall]|].
  (* 0 and total are entries at cut positions: 0 is a cut (or total = 0 is) and the edges begin with it; total is a cut,
     and the first entry >= total is total, the largest entry.  A strictly sorted list that holds both begins with
     the one and ends with the other. *)
  destruct (sorted_ends (map (fun i => znth edges i 0) idx) 0 total) as [A B]; auto using (sorted_weaken Z.lt Z.le), Z.lt_le_incl.
  - apply in_map_iff. exists 0. split; [reflexivity|]. apply Hidx. exists 0. split; [|reflexivity].
    destruct (Z.eq_dec total 0) as [E|E]; [now rewrite <- E|]. apply in_or_app. left.
    apply in_map_iff. exists 0. split; [lia|]. apply in_zrange.
    pose proof (cdiv_le_iff total maxlen 0 ltac:(lia)). specialize (Hcuts _ Htot). lia.
  - apply in_map_iff. exists (pos total). split; [|apply Hidx; eauto].
    assert (Hr : In (pos total) idx) by (apply Hidx; eauto). apply Hrange in Hr.
    pose proof (ssl_at edges total ltac:(unfold pos in *; lia)).
    assert (Hin : In (znth edges (pos total) 0) edges) by (apply nth_In; unfold zlen in Hr; lia).
    apply Hedges in Hin. unfold znth, pos in *. lia.
  - intros x Hx. apply in_map_iff in Hx as [i [<- Hi]]. apply Hedges, nth_In. apply Hrange in Hi. unfold zlen in Hi. lia.
Qed.

Definition KeysBefore (a b : list pixel) : Prop :=
  forall ka kb, In ka (keys a) -> In kb (keys b) -> klt ka kb.

Theorem chunks_canon parts :
  ForallOrdPairs KeysBefore parts -> concat (map aggregate parts) = aggregate (concat parts).
Proof.
  induction 1 as [|a ps Hall HF IH]; [reflexivity|].
  cbn [map concat]. rewrite IH, <- !groupby_sum_aggregate. symmetry. apply groupby_agg_app.
  intros ka kb Ha Hb. unfold keys in Hb. rewrite concat_map in Hb.
  apply in_concat in Hb as [ks [Hks Hk]]. apply in_map_iff in Hks as [p [<- Hp]].
  rewrite Forall_forall in Hall. exact (Hall p Hp ka kb Ha Hk).
Qed.

Definition RowSorted (px : list pixel) : Prop := StronglySorted Z.le (map row px).
Lemma ssorted_b_rowsorted px : ssorted_b px = true -> RowSorted px.
Proof. intros H. apply ssorted_rows. now apply ssorted_b_spec. Qed.

(** number of pixels whose row is < r : the entry r of indexes/bin1_offset *)
Definition cut_at (px : list pixel) (r : Z) : nat := length (filter (fun p => row p <? r) px).

Lemma cut_at_split px r : RowSorted px ->
  Forall (fun p => row p < r) (firstn (cut_at px r) px) /\
  Forall (fun p => r <= row p) (skipn (cut_at px r) px).
Proof.
  unfold RowSorted, cut_at. induction px as [|p px IH]; cbn [map]; intros HS.
  - cbn. split; constructor.
  - inversion HS as [|? ? Hs Hall]; subst. cbn [filter].
    destruct (row p <? r) eqn:E.
    + cbn [length firstn skipn]. destruct (IH Hs) as [A B]. split; [constructor; [lia|exact A]|exact B].
    + assert (Hnone : filter (fun p0 => row p0 <? r) px = []).
      { apply filter_none. intros x Hx. rewrite Forall_forall in Hall.
        specialize (Hall (row x) (in_map row _ _ Hx)). lia. }
      rewrite Hnone. cbn. split; [constructor|].
      constructor; [lia|]. apply Forall_forall. intros x Hx. rewrite Forall_forall in Hall.
      specialize (Hall (row x) (in_map row _ _ Hx)). lia.
Qed.

Lemma cut_at_le px r : (cut_at px r <= length px)%nat.
Proof.
  unfold cut_at. induction px as [|p px IH]; cbn [filter length]; [lia|].
  destruct (row p <? r); cbn [length]; lia.
Qed.

Lemma cut_at_mono px r r' : r <= r' -> (cut_at px r <= cut_at px r')%nat.
Proof.
  intros H. unfold cut_at. induction px as [|p px IH]; [reflexivity|]. cbn [filter].
  destruct (row p <? r) eqn:E; [replace (row p <? r') with true by lia; cbn; lia|]. destruct (row p <? r'); cbn; lia.
Qed.

Lemma bin1_offset_nth n px r : 0 <= r <= n ->
  znth (bin1_offset n px) r 0 = Z.of_nat (cut_at px r).
Proof.
  intros Hr. unfold bin1_offset, znth.
  rewrite (nth_error_nth _ (Z.to_nat r) 0 (x := Z.of_nat (cut_at px r))); [reflexivity|].
  rewrite nth_error_map, nth_error_zrange by lia. cbn. unfold zlen, cut_at. do 3 f_equal.
  rewrite Z2Nat.id by lia. reflexivity.
Qed.

Lemma spans_cons a b r : spans (a :: b :: r) = (a, b) :: spans (b :: r).
Proof. reflexivity. Qed.

(** an aligned cut: every re-keyed row before position c is smaller than every re-keyed row from c on *)
Definition AlignedCut (f : Z -> Z) (px : list pixel) (c : nat) : Prop :=
  forall p q, In p (firstn c px) -> In q (skipn c px) -> f (row p) < f (row q).

Lemma slice_in_firstn (px : list pixel) a b p : 0 <= a <= b -> In p (slice px a b) -> In p (firstn (Z.to_nat b) px).
Proof.
  intros H Hp. unfold slice in Hp. replace (Z.to_nat b) with (Z.to_nat a + Z.to_nat (b - a))%nat by lia.
  rewrite firstn_add. apply in_or_app. now right.
Qed.

Section Rekey.
  Variable tbl : list Z.
  Let f := fun r => znth tbl r 0.

  Lemma rekey_row p : row (rekey tbl p) = f (row p).
  Proof. reflexivity. Qed.
End Rekey.

Lemma chunks_n_concat {A} (n : nat) : (1 <= n)%nat ->
  forall fuel (l : list A), (length l <= fuel)%nat -> concat (chunks_n fuel n l) = l.
Proof.
  intros Hn. induction fuel as [|f IH]; intros l Hl.
  - destruct l; [reflexivity|cbn in Hl; lia].
  - destruct l as [|x l]; [reflexivity|]. cbn [chunks_n concat].
    rewrite IH; [apply firstn_skipn|]. rewrite skipn_length. cbn [length] in *. lia.
Qed.

Lemma iter_batches {A B} (g : A -> B) n (l : list A) : 1 <= n ->
  concat (map (map g) (chunks_of n l)) = map g l.
Proof.
  intros Hn. rewrite <- concat_map. f_equal. unfold chunks_of. apply chunks_n_concat; lia.
Qed.

(** tbl splits at position r into a part all of whose values are smaller than all values after it *)
Definition SplitLt (tbl : list Z) (r : Z) : Prop :=
  exists A B, tbl = A ++ B /\ zlen A = r /\ forall a b, In a A -> In b B -> a < b.

Lemma splitlt_app P T r : (forall a b, In a P -> In b T -> a < b) -> SplitLt T r -> SplitLt (P ++ T) (zlen P + r).
Proof.
  intros H (A & B & -> & <- & Hlt). exists (P ++ A), B. rewrite app_assoc, zlen_app.
  split; [reflexivity|]. split; [reflexivity|]. intros a b Ha Hb.
  apply in_app_or in Ha as [Ha|Ha]; [apply H; [exact Ha|apply in_or_app; now right]|now apply Hlt].
Qed.

Lemma split_znth tbl r : SplitLt tbl r ->
  forall x y, 0 <= x < r -> r <= y < zlen tbl -> znth tbl x 0 < znth tbl y 0.
Proof.
  intros (A & B & -> & HA & Hlt) x y Hx Hy. unfold zlen, znth in *. rewrite app_length in Hy.
  apply Hlt.
  - rewrite app_nth1 by lia. apply nth_In. lia.
  - rewrite app_nth2 by lia. apply nth_In. lia.
Qed.

Lemma itf_lower k lens : 1 <= k -> Forall (fun n => 0 <= n) lens ->
  forall off v, In v (index_table_from off k lens) -> off <= v.
Proof.
  intros Hk. induction 1 as [|n r Hn HF IH]; intros off v Hv; [inversion Hv|].
  cbn [index_table_from] in Hv. apply in_app_or in Hv as [Hv|Hv].
  - apply in_map_iff in Hv as [m [<- Hm]]. apply in_zrange in Hm. pose proof (div_lt_iff m k 0 ltac:(lia)). lia.
  - apply IH in Hv. pose proof (cdiv_nonneg n k Hn ltac:(lia)). lia.
Qed.

Lemma itf_length k lens : Forall (fun n => 0 <= n) lens ->
  forall off, zlen (index_table_from off k lens) = sumZ lens.
Proof.
  induction 1 as [|n r Hn HF IH]; intros off; [reflexivity|].
  cbn [index_table_from]. rewrite zlen_app, zlen_map, sumZ_cons, IH. unfold zlen. rewrite zrange_length. lia.
Qed.

Lemma itf_upper k lens : 1 <= k -> Forall (fun n => 0 <= n) lens ->
  forall off v, In v (index_table_from off k lens) -> v < off + sumZ (map (fun n => cdiv n k) lens).
Proof.
  intros Hk. induction 1 as [|n r Hn HF IH]; intros off v Hv; [inversion Hv|].
  cbn [index_table_from map] in *. rewrite sumZ_cons.
  assert (0 <= sumZ (map (fun n0 => cdiv n0 k) r)).
  { apply sumZ_nonneg. apply Forall_forall. intros x Hx. apply in_map_iff in Hx as [y [<- Hy]].
    rewrite Forall_forall in HF. apply cdiv_nonneg; [auto|lia]. }
  apply in_app_or in Hv as [Hv|Hv].
  - apply in_map_iff in Hv as [m [<- Hm]]. apply in_zrange in Hm.
    pose proof (div_lt_cdiv m n k ltac:(lia) ltac:(lia)). lia.
  - apply IH in Hv. lia.
Qed.

(** the first rows of the groups of k bins: O_i + q*k with q*k < n_i, for chromosome i of n_i bins at offset O_i *)
Fixpoint group_starts (off k : Z) (lens : list Z) : list Z :=
  match lens with
  | [] => []
  | n :: r => map (fun q => off + q * k) (zrange 0 (Z.to_nat (cdiv n k))) ++ group_starts (off + n) k r
  end.

Lemma group_starts_range k lens : 1 <= k -> Forall (fun n => 0 <= n) lens ->
  forall off r, In r (group_starts off k lens) -> off <= r < off + sumZ lens.
Proof.
  intros Hk. induction 1 as [|n rest Hn HF IH]; intros off r Hr; [inversion Hr|].
  cbn [group_starts] in Hr. rewrite sumZ_cons. pose proof (sumZ_nonneg rest HF).
  apply in_app_or in Hr as [Hr|Hr]; [|apply IH in Hr; lia].
  apply in_map_iff in Hr as [q [<- Hq]]. apply in_zrange in Hq.
  pose proof (cdiv_le_iff n k q ltac:(lia)). nia.
Qed.

Lemma group_starts_sorted k lens : 1 <= k -> Forall (fun n => 0 <= n) lens ->
  forall off, StronglySorted Z.lt (group_starts off k lens).
Proof.
  intros Hk HF. induction HF as [|n rest Hn HF IH]; intros off; [constructor|]. cbn [group_starts].
  apply ssorted_app; [|apply IH|].
  - apply (ssorted_map Z.lt); [apply zrange_sorted|]. intros; nia.
  - intros x y Hx Hy. apply (group_starts_range k rest Hk HF) in Hy.
    apply in_map_iff in Hx as [q [<- Hq]]. apply in_zrange in Hq. pose proof (cdiv_le_iff n k q ltac:(lia)). lia.
Qed.

Lemma group_starts_split k lens : 1 <= k -> Forall (fun n => 0 <= n) lens ->
  forall off toff, Forall (fun r => SplitLt (index_table_from toff k lens) (r - off)) (group_starts off k lens).
Proof.
  intros Hk HF. induction HF as [|n rest Hn HF IH]; intros off toff; [constructor|].
  cbn [group_starts index_table_from]. apply Forall_app. split.
  - apply Forall_forall. intros r Hr. apply in_map_iff in Hr as [q [<- Hq]]. apply in_zrange in Hq.
    assert (Hqk : 0 <= q * k < n) by (pose proof (cdiv_le_iff n k q ltac:(lia)); nia).
    replace (off + q * k - off) with (q * k) by lia.
    replace (Z.to_nat n) with (Z.to_nat (q * k) + Z.to_nat (n - q * k))%nat by lia.
    rewrite zrange_app, map_app, <- app_assoc.
    eexists _, _. split; [reflexivity|]. split; [rewrite zlen_map; unfold zlen; rewrite zrange_length; lia|].
    intros a b Ha Hb. apply in_map_iff in Ha as [m [<- Hm]]. apply in_zrange in Hm.
    pose proof (div_lt_iff m k q ltac:(lia)). apply in_app_or in Hb as [Hb|Hb].
    + apply in_map_iff in Hb as [m' [<- Hm']]. apply in_zrange in Hm'. pose proof (div_lt_iff m' k q ltac:(lia)). lia.
    + apply (itf_lower k rest Hk HF) in Hb. pose proof (cdiv_le_iff n k q ltac:(lia)). lia.
  - eapply Forall_impl; [|apply (IH (off + n) (toff + cdiv n k))]. intros r Hr. cbv beta in *.
    replace (r - off) with (zlen (map (fun m => toff + m / k) (zrange 0 (Z.to_nat n))) + (r - (off + n)))
      by (rewrite zlen_map; unfold zlen; rewrite zrange_length; lia).
    apply splitlt_app; [|exact Hr]. intros a b Ha Hb. apply (itf_lower k rest Hk HF) in Hb.
    apply in_map_iff in Ha as [m [<- Hm]]. apply in_zrange in Hm. pose proof (div_lt_cdiv m n k ltac:(lia) ltac:(lia)). lia.
Qed.

Lemma aligned_of_split tbl px n r :
  RowSorted px -> Forall (fun p => 0 <= row p < n) px -> zlen tbl = n -> 0 <= r ->
  SplitLt tbl r -> AlignedCut (fun x => znth tbl x 0) px (cut_at px r).
Proof.
  intros HS Hrng Hlen Hr Hsp p q Hp Hq.
  destruct (cut_at_split px r HS) as [A B]. rewrite Forall_forall in A, B, Hrng.
  specialize (A p Hp). specialize (B q Hq).
  assert (Hp' : In p px) by (rewrite <- (firstn_skipn (cut_at px r) px); apply in_or_app; now left).
  assert (Hq' : In q px) by (rewrite <- (firstn_skipn (cut_at px r) px); apply in_or_app; now right).
  apply (split_znth tbl r Hsp); [specialize (Hrng p Hp'); lia|specialize (Hrng q Hq'); lia].
Qed.

Lemma aligned_end (f : Z -> Z) px : AlignedCut f px (length px).
Proof. intros p q _ Hq. rewrite skipn_all in Hq. inversion Hq. Qed.

Lemma spans_by_index {B} (G : Z -> Z -> B) c :
  map (fun i => G (znth c i 0) (znth c (i + 1) 0)) (zrange 0 (length c - 1)) = map (fun s => G (fst s) (snd s)) (spans c).
Proof.
  induction c as [|a [|b r] IH]; [reflexivity|reflexivity|]. rewrite spans_cons. cbn [map]. rewrite <- IH.
  cbn [length]. replace (S (S (length r)) - 1)%nat with (S (S (length r) - 1)) by lia.
  rewrite zrange_cons, zrange_shift. cbn [map fst snd]. rewrite map_map. f_equal.
  apply map_ext_in. intros i Hi. apply in_zrange in Hi. unfold znth.
  replace (Z.to_nat (i + 1)) with (S (Z.to_nat i)) by lia. replace (Z.to_nat (i + 1 + 1)) with (S (S (Z.to_nat i))) by lia.
  reflexivity.
Qed.

Lemma strided_slices (b : list Z) k lens : 1 <= k -> Forall (fun n => 0 <= n) lens ->
  forall off, 0 <= off -> off + sumZ lens <= zlen b ->
  concat (map (fun s => stride k (slice b (fst s) (snd s))) (spans (off :: cumsum_from off lens))) =
  map (fun r => znth b r 0) (group_starts off k lens).
Proof.
  intros Hk HF. induction HF as [|n rest Hn HF IH]; intros off Hoff Hb; [reflexivity|].
  rewrite sumZ_cons in Hb. pose proof (sumZ_nonneg rest HF).
  cbn [cumsum_from group_starts]. rewrite spans_cons. cbn [map concat fst snd].
  rewrite (stride_slice b 0), IH, map_app, map_map by lia.
  replace (off + n - off) with n by lia. reflexivity.
Qed.

Section Edges.
  Variable lens : list Z.
  Variable px : list pixel.
  Variable k : Z.
  Hypothesis Hk : 1 <= k.
  Hypothesis Hlens : Forall (fun n => 1 <= n) lens.
  Hypothesis Hsorted : RowSorted px.
  Hypothesis Hrows : Forall (fun p => 0 <= row p < sumZ lens) px.
  Let n := sumZ lens.
  Let tbl := index_table lens k.
  Let f := fun r => znth tbl r 0.

  Lemma lens_nonneg : Forall (fun m => 0 <= m) lens.
  Proof. eapply Forall_impl; [|exact Hlens]. intros; cbn in *; lia. Qed.

  Lemma cut_at_zero : cut_at px 0 = 0%nat.
  Proof.
    unfold cut_at. rewrite filter_none; [reflexivity|]. intros x Hx.
    rewrite Forall_forall in Hrows. specialize (Hrows x Hx). lia.
  Qed.

  Lemma cut_at_n : cut_at px n = length px.
  Proof.
    unfold cut_at. rewrite filter_all; [reflexivity|]. intros x Hx.
    rewrite Forall_forall in Hrows. specialize (Hrows x Hx). fold n in Hrows. lia.
  Qed.

  Lemma coarse_edges_eq :
    coarse_edges (0 :: cumsum lens) (bin1_offset n px) k =
    map (fun r => Z.of_nat (cut_at px r)) (group_starts 0 k lens) ++ [zlen px].
  Proof.
    pose proof lens_nonneg as Hnn. pose proof (sumZ_nonneg lens Hnn) as Hn. fold n in Hn.
    assert (Hlen : zlen (bin1_offset n px) = n + 1).
    { unfold bin1_offset. rewrite zlen_map. unfold zlen. rewrite zrange_length. lia. }
    unfold coarse_edges.
    pose proof (spans_by_index (fun lo hi => stride k (slice (bin1_offset n px) lo hi)) (0 :: cumsum lens)) as E.
    cbv beta in E. rewrite E. clear E. unfold cumsum. rewrite (strided_slices _ k lens Hk Hnn 0) by (fold n; lia). f_equal.
    - apply map_ext_in. intros r Hr. apply (group_starts_range k lens Hk Hnn) in Hr. apply bin1_offset_nth. fold n in Hr. lia.
    - rewrite last_nth. unfold zlen in Hlen. replace (length (bin1_offset n px) - 1)%nat with (Z.to_nat n) by lia.
      change (nth (Z.to_nat n) (bin1_offset n px) 0) with (znth (bin1_offset n px) n 0).
      rewrite bin1_offset_nth, cut_at_n by lia. reflexivity.
  Qed.

  Theorem coarse_edges_facts :
    let E := coarse_edges (0 :: cumsum lens) (bin1_offset n px) k in
    (exists rest, E = 0 :: rest) /\ StronglySorted Z.le E /\ last E 0 = zlen px /\
    Forall (fun c => AlignedCut f px (Z.to_nat c)) E.
  Proof.
    pose proof lens_nonneg as Hnn. cbv zeta. rewrite coarse_edges_eq. split; [|split; [|split]].
    - pose proof cut_at_zero as C0. destruct Hlens as [|n0 rest Hn0 _].
      + (* no chromosome, hence no pixel *)
        exists []. destruct px as [|p ?]; [reflexivity|]. apply Forall_inv in Hrows. cbn in Hrows. lia.
      + cbn [group_starts]. pose proof (cdiv_pos n0 k ltac:(lia) ltac:(lia)).
        replace (Z.to_nat (cdiv n0 k)) with (S (Z.to_nat (cdiv n0 k) - 1)) by lia.
        rewrite zrange_cons. cbn [map app]. change (0 + 0 * k) with 0. rewrite C0. eexists. reflexivity.
    - apply ssorted_app; [|repeat constructor|].
      + apply (ssorted_map Z.lt Z.le); [now apply group_starts_sorted|]. intros i j _ _ Hij. apply inj_le, cut_at_mono. lia.
      + intros x y Hx [<-|[]]. apply in_map_iff in Hx as [r [<- _]]. apply inj_le, cut_at_le.
    - apply last_last.
    - apply Forall_app. split; [|repeat constructor; unfold zlen; rewrite Nat2Z.id; apply aligned_end].
      rewrite Forall_map. eapply Forall_impl; [|apply (group_starts_split k lens Hk Hnn 0 0)].
      intros r Hr. cbv beta in *. rewrite Nat2Z.id, Z.sub_0_r in *.
      apply (aligned_of_split tbl px n); auto; [apply itf_length, Hnn|].
      destruct Hr as (A & B & _ & <- & _). apply zlen_nonneg.
  Qed.
End Edges.

Lemma nodup_block o s blk (rest : list Z) :
  Tiled o s blk -> blk <> [] -> ~ In o rest ->
  nodup Z.eq_dec (map bchrom blk ++ rest) = o :: nodup Z.eq_dec rest.
Proof.
  intros HT. induction HT as [|s e l Hse HT IH]; intros Hne Hnot; [congruence|].
  cbn [map app]. unfold bchrom at 1. cbn [fst nodup].
  destruct l as [|y l].
  - cbn [map app]. destruct (in_dec Z.eq_dec o rest); [contradiction|reflexivity].
  - assert (Hy : bchrom y = o) by (eapply tiled_chrom; [exact HT|now left]).
    destruct (in_dec Z.eq_dec o (map bchrom (y :: l) ++ rest)) as [_|n0].
    + apply IH; [discriminate|exact Hnot].
    + exfalso. apply n0. cbn [map app]. left. exact Hy.
Qed.

Lemma chroms_of_blocksfrom o blocks : BlocksFrom o blocks ->
  chroms_of (concat blocks) = zrange o (length blocks).
Proof.
  induction 1 as [|o blk rest Hne HT HB IH]; [reflexivity|].
  unfold chroms_of in *. cbn [concat length]. rewrite map_app, zrange_cons.
  rewrite (nodup_block o 0 blk _ HT Hne).
  - now rewrite IH.
  - intros Hin. apply in_map_iff in Hin as [y [Hy Hin]].
    pose proof (blocksfrom_chrom _ _ HB y Hin). lia.
Qed.

Lemma map_chroms_valid {B} (G : Z -> list bin -> B) blocks : ValidBlocks blocks ->
  map (fun c => G c (rows_of (concat blocks) c)) (chroms_of (concat blocks)) =
  map (fun ib => G (fst ib) (snd ib)) (enumerate blocks).
Proof.
  intros HV. rewrite (chroms_of_blocksfrom 0) by now apply valid_blocksfrom. apply nth_error_ext'. intros i.
  rewrite !nth_error_map.
  destruct (nth_error blocks i) as [blk|] eqn:E.
  - rewrite (nth_error_enumerate _ _ _ E). rewrite nth_error_zrange by (apply nth_error_Some; congruence).
    cbn [option_map fst snd]. rewrite Z.add_0_l. now rewrite (rows_of_valid _ HV i blk E).
  - apply nth_error_None in E.
    now rewrite (proj2 (nth_error_None (zrange 0 _) i)), (proj2 (nth_error_None (enumerate blocks) i))
      by (rewrite ?zrange_length, ?enumerate_length; lia).
Qed.

Lemma map_groups_valid {B} (G : list bin -> B) blocks : ValidBlocks blocks ->
  map (fun c => G (rows_of (concat blocks) c)) (chroms_of (concat blocks)) = map G blocks.
Proof.
  intros HV. rewrite (map_chroms_valid (fun _ g => G g) blocks HV). cbn [fst snd].
  rewrite <- (map_snd_enumerate blocks) at 2. now rewrite map_map.
Qed.

Lemma chrom_offset_valid blocks : ValidBlocks blocks ->
  chrom_offset (concat blocks) = 0 :: cumsum (map zlen blocks).
Proof.
  intros HV. unfold chrom_offset, chrom_binoffset, nbins_per_chrom. f_equal. f_equal.
  apply (map_groups_valid (fun g => zlen g) blocks HV).
Qed.

Definition bin0 : bin := (0, 0, 0).

(** new bin q of a chromosome block: [start(old q*k), end(old min(q*k+k, n) - 1)) *)
Definition group_bin (k : Z) (blk : list bin) (q : Z) : bin :=
  let x := nth (Z.to_nat (q * k)) blk bin0 in
  (bchrom x, bstart x, bend (nth (Z.to_nat (Z.min (q * k + k) (zlen blk) - 1)) blk bin0)).

(** the new table of one chromosome: coarsen_group in closed form ([coarsen_group_spec]) *)
Definition coarsen_block (k : Z) (blk : list bin) : list bin :=
  map (group_bin k blk) (zrange 0 (Z.to_nat (cdiv (zlen blk) k))).

(** l[k-1::k] = [l[q*k + k - 1] for q < floor(len l / k)] *)
Lemma stride_tail {A} (l : list A) d k : 1 <= k ->
  stride k (skipn (Z.to_nat (k - 1)) l) =
  map (fun q => nth (Z.to_nat (q * k + k - 1)) l d) (zrange 0 (Z.to_nat (zlen l / k))).
Proof.
  intros Hk. pose proof (zlen_nonneg l). destruct (Z_lt_le_dec (zlen l) (k - 1)) as [Hs|Hl].
  - rewrite skipn_all2 by (unfold zlen in *; lia). rewrite Z.div_small by lia. reflexivity.
  - replace (skipn (Z.to_nat (k - 1)) l) with (slice l (k - 1) (zlen l))
      by (unfold slice; apply firstn_all2; rewrite skipn_length; unfold zlen; lia).
    rewrite (stride_slice l d) by lia. unfold cdiv. replace (zlen l - (k - 1) + k - 1) with (zlen l) by lia.
    apply map_ext. intros q. do 2 f_equal. lia.
Qed.

Theorem coarsen_group_spec k blk : 1 <= k -> blk <> [] ->
  coarsen_group k (chrom_end blk) blk = coarsen_block k blk.
Proof.
  intros Hk Hne. unfold coarsen_group, coarsen_block, group_bin.
  rewrite (stride_all blk bin0), (stride_tail blk bin0), !map_length, !zrange_length, map_map by exact Hk.
  remember (zlen blk) as n eqn:En.
  assert (Hn : 1 <= n) by (subst n; destruct blk; [congruence|rewrite zlen_cons; pose proof (zlen_nonneg blk); lia]).
  set (g := fun q => bend (nth (Z.to_nat (Z.min (q * k + k) n - 1)) blk bin0)).
  (* a full group ends with old bin q*k + k - 1 *)
  assert (Hfull : map (fun q => bend (nth (Z.to_nat (q * k + k - 1)) blk bin0)) (zrange 0 (Z.to_nat (n / k))) =
                  map g (zrange 0 (Z.to_nat (n / k)))).
  { apply map_ext_in. intros q Hq. apply in_zrange in Hq. pose proof (div_lt_iff n k (q + 1) ltac:(lia)).
    unfold g. do 3 f_equal. lia. }
  rewrite Hfull. clear Hfull.
  (* the last group is shorter iff k does not divide n, and then ends with the chromosome *)
  assert (Hends : (if (Z.to_nat (n / k) <? Z.to_nat (cdiv n k))%nat
                   then map g (zrange 0 (Z.to_nat (n / k))) ++ [chrom_end blk] else map g (zrange 0 (Z.to_nat (n / k)))) =
                  map g (zrange 0 (Z.to_nat (cdiv n k)))).
  { pose proof (div_le_cdiv n k ltac:(lia)). pose proof (cdiv_le_iff n k (n / k + 1) ltac:(lia)).
    pose proof (div_lt_iff n k (n / k + 1) ltac:(lia)). pose proof (div_lt_iff n k 0 ltac:(lia)).
    destruct (Nat.ltb_spec (Z.to_nat (n / k)) (Z.to_nat (cdiv n k))).
    - replace (Z.to_nat (cdiv n k)) with (S (Z.to_nat (n / k))) by lia. rewrite zrange_snoc, map_app. cbn [map].
      do 2 f_equal. unfold chrom_end, g. rewrite last_nth. do 2 f_equal. unfold zlen in En. lia.
    - f_equal. f_equal. lia. }
  rewrite Hends, combine_map_both, map_map. reflexivity.
Qed.

Lemma tiled_nth c s l : Tiled c s l ->
  forall i x, nth_error l i = Some x ->
    bchrom x = c /\ bstart x < bend x /\
    bstart x = match i with O => s | S j => bend (nth j l bin0) end.
Proof.
  induction 1 as [|s e l Hse HT IH]; intros i x Hi; [now rewrite nth_error_nil' in Hi|].
  destruct i as [|i]; cbn [nth_error] in Hi.
  - injection Hi as <-. unfold bchrom, bstart, bend; cbn. auto.
  - destruct (IH i x Hi) as (A & B & D). split; [exact A|]. split; [exact B|].
    rewrite D. destruct i as [|i]; reflexivity.
Qed.

Lemma tiled_mono c s l : Tiled c s l ->
  forall i j, (i <= j < length l)%nat ->
    bstart (nth i l bin0) <= bstart (nth j l bin0) /\ bend (nth i l bin0) <= bend (nth j l bin0).
Proof.
  intros HT i j. induction j as [|j IH]; intros Hij.
  - replace i with 0%nat by lia. lia.
  - destruct (Nat.eq_dec i (S j)) as [->|Hne]; [lia|].
    destruct (IH ltac:(lia)) as [A B].
    destruct (tiled_nth c s l HT (S j) (nth (S j) l bin0)) as (_ & P & Q); [apply nth_error_nth'; lia|].
    destruct (tiled_nth c s l HT j (nth j l bin0)) as (_ & P' & _); [apply nth_error_nth'; lia|].
    lia.
Qed.

Lemma coarsen_block_length k blk : 1 <= k -> zlen (coarsen_block k blk) = cdiv (zlen blk) k.
Proof.
  intros Hk. unfold coarsen_block. rewrite zlen_map. unfold zlen at 1. rewrite zrange_length.
  pose proof (cdiv_nonneg (zlen blk) k (zlen_nonneg blk) ltac:(lia)). lia.
Qed.

Lemma coarsen_block_nth k blk q : 1 <= k -> 0 <= q < cdiv (zlen blk) k ->
  nth_error (coarsen_block k blk) (Z.to_nat q) = Some (group_bin k blk q).
Proof.
  intros Hk Hq. unfold coarsen_block. rewrite nth_error_map, nth_error_zrange by lia.
  cbn. do 2 f_equal. lia.
Qed.

Theorem coarsen_block_tiled k c s blk : 1 <= k -> Tiled c s blk -> blk <> [] ->
  Tiled c s (coarsen_block k blk) /\ coarsen_block k blk <> [] /\ chrom_end (coarsen_block k blk) = chrom_end blk.
Proof.
  intros Hk HT Hne. pose proof (coarsen_block_length k blk Hk) as Hlen.
  unfold coarsen_block in *. remember (zlen blk) as n eqn:En. unfold zlen in En, Hlen.
  assert (Hn : 1 <= n) by (destruct blk; [congruence|cbn in En; lia]).
  pose proof (cdiv_pos n k ltac:(lia) ltac:(lia)) as HN. pose proof (cdiv_bracket n k ltac:(lia)) as Hbr.
  split; [|split].
  - replace s with (bstart (group_bin k blk 0)) by (destruct HT; [congruence|reflexivity]).
    apply tiled_map. intros q Hq. pose proof (cdiv_le_iff n k q ltac:(lia)) as Hqk.
    unfold group_bin. replace (zlen blk) with n by (unfold zlen; lia).
    set (a := Z.to_nat (q * k)). set (b := Z.to_nat (Z.min (q * k + k) n - 1)).
    destruct (tiled_nth c s blk HT a (nth a blk bin0)) as (A & B & D); [apply nth_error_nth'; lia|].
    destruct (tiled_mono c s blk HT a b ltac:(lia)) as [_ Me].
    unfold bchrom, bstart, bend in *; cbn [fst snd]. split; [exact A|]. split; [lia|]. intros Hq0.
    (* the group before ends with the old bin just before this group's first *)
    replace a with (S (Z.to_nat (Z.min ((q - 1) * k + k) n - 1))) in D |- * by lia. exact D.
  - intros E. rewrite E in Hlen. cbn in Hlen. lia.
  - replace (Z.to_nat (cdiv n k)) with (S (Z.to_nat (cdiv n k - 1))) by lia. rewrite zrange_snoc, map_app. cbn [map].
    unfold chrom_end. rewrite last_last, last_nth. unfold group_bin, bend at 1; cbn [snd].
    do 2 f_equal. rewrite Z2Nat.id by lia. unfold zlen. lia.
Qed.

Theorem coarsen_bins_spec blocks k : 1 <= k -> ValidBlocks blocks ->
  let nb := map (coarsen_block k) blocks in
  coarsen_bins (concat blocks) (map chrom_end blocks) k = concat nb /\
  ValidBlocks nb /\ map chrom_end nb = map chrom_end blocks /\ map zlen nb = map (fun blk => cdiv (zlen blk) k) blocks.
Proof.
  intros Hk HV nb. split; [|split; [|split]].
  - unfold coarsen_bins.
    rewrite (map_chroms_valid (fun c g => coarsen_group k (znth (map chrom_end blocks) c 0) g) blocks HV).
    f_equal. unfold nb. apply nth_error_ext'. intros i. rewrite !nth_error_map.
    destruct (nth_error blocks i) as [blk|] eqn:E.
    + rewrite (nth_error_enumerate _ _ _ E). cbn [option_map fst snd]. f_equal.
      unfold znth. rewrite Nat2Z.id, (nth_error_nth _ i 0 (x := chrom_end blk)) by (rewrite nth_error_map, E; reflexivity).
      apply coarsen_group_spec; [exact Hk|]. now destruct (HV i blk E).
    + now rewrite (proj2 (nth_error_None (enumerate blocks) i)) by (rewrite enumerate_length; now apply nth_error_None).
  - intros i nblk Hi. unfold nb in Hi. rewrite nth_error_map in Hi.
    destruct (nth_error blocks i) as [blk|] eqn:E; [|discriminate]. injection Hi as <-.
    destruct (HV i blk E) as [Hne HT].
    destruct (coarsen_block_tiled k _ 0 blk Hk HT Hne) as (A & B & _). auto.
  - unfold nb. rewrite map_map. apply nth_error_ext'. intros i. rewrite !nth_error_map.
    destruct (nth_error blocks i) as [blk|] eqn:E; [|reflexivity]. cbn. f_equal.
    destruct (HV i blk E) as [Hne HT].
    now destruct (coarsen_block_tiled k _ 0 blk Hk HT Hne) as (_ & _ & D).
  - unfold nb. rewrite map_map. apply map_ext. intros blk. now apply coarsen_block_length.
Qed.

Lemma cumsum_from_nth l : forall acc i, (i < length l)%nat ->
  nth i (cumsum_from acc l) 0 = acc + sumZ (firstn (S i) l).
Proof.
  induction l as [|x l IH]; intros acc i Hi; [cbn in Hi; lia|].
  destruct i as [|i]; cbn [cumsum_from nth firstn sumZ fold_right].
  - cbn. lia.
  - rewrite IH by (cbn in Hi; lia). cbn [firstn sumZ fold_right]. lia.
Qed.

Lemma choff_nth lens i : (i <= length lens)%nat -> nth i (0 :: cumsum lens) 0 = sumZ (firstn i lens).
Proof.
  intros Hi. destruct i as [|i]; [reflexivity|]. cbn [nth]. unfold cumsum.
  rewrite cumsum_from_nth by lia. lia.
Qed.

Lemma ssr_app_le P R x : Forall (fun v => v <= x) P ->
  searchsorted_right (P ++ R) x = zlen P + searchsorted_right R x.
Proof.
  unfold zlen. induction 1 as [|v P Hv HF IH]; [cbn; lia|].
  cbn [app searchsorted_right length]. destruct (v <=? x) eqn:E; [|lia]. rewrite IH. lia.
Qed.

Lemma ssr_app_hd Q R x : (R = [] \/ x < hd 0 R) -> searchsorted_right (Q ++ R) x = searchsorted_right Q x.
Proof.
  intros HR. induction Q as [|v Q IH]; cbn [app searchsorted_right].
  - destruct HR as [->|HR]; [reflexivity|]. destruct R as [|r R]; [reflexivity|]. cbn in *.
    destruct (r <=? x) eqn:E; [lia|reflexivity].
  - destruct (v <=? x); [now rewrite IH|reflexivity].
Qed.

Lemma tiled_ssr c A s : forall s0 l, Tiled c s0 l ->
  forall q y, nth_error l q = Some y -> bstart y <= s < bend y ->
  searchsorted_right (map (fun z => A + bstart z) l) (A + s) = Z.of_nat q + 1.
Proof.
  intros s0 l HT. induction HT as [|s0 e l Hse HT IH]; intros q y Hq Hs; [now rewrite nth_error_nil' in Hq|].
  destruct q as [|q]; cbn [nth_error] in Hq.
  - injection Hq as <-. unfold bstart, bend in Hs; cbn [fst snd] in Hs.
    cbn [map searchsorted_right]. unfold bstart at 1; cbn [fst snd].
    destruct (A + s0 <=? A + s) eqn:E; [|lia].
    assert (H0 : searchsorted_right (map (fun z => A + bstart z) l) (A + s) = 0).
    { inversion HT as [|? e' l' He' HT']; subst; [reflexivity|].
      cbn [map searchsorted_right]. unfold bstart at 1; cbn [fst snd].
      destruct (A + e <=? A + s) eqn:E'; [lia|reflexivity]. }
    rewrite H0. lia.
  - cbn [map searchsorted_right]. unfold bstart at 1; cbn [fst snd].
    pose proof (tiled_start_ge c e l HT y (nth_error_In _ _ Hq)) as Hge.
    destruct (A + s0 <=? A + s) eqn:E; [|lia]. rewrite (IH q y Hq Hs). lia.
Qed.

(** absolute start coordinates, chromosome block by chromosome block *)
Fixpoint sa_from (A : Z) (NB : list (list bin)) : list Z :=
  match NB with
  | [] => []
  | b :: r => map (fun y => A + bstart y) b ++ sa_from (A + chrom_end b) r
  end.

Lemma start_abspos_sa_gen sizes : forall o NB A, BlocksFrom o NB ->
  (forall j, (j < length NB)%nat -> znth (chrom_abspos sizes) (o + Z.of_nat j) 0 = A + sumZ (firstn j (map chrom_end NB))) ->
  map (fun y => znth (chrom_abspos sizes) (bchrom y) 0 + bstart y) (concat NB) = sa_from A NB.
Proof.
  intros o NB A HB. revert A. induction HB as [|o blk rest Hne HT HB IH]; intros A HA; [reflexivity|].
  cbn [concat sa_from]. rewrite map_app. f_equal.
  - apply map_ext_in. intros y Hy. rewrite (tiled_chrom _ _ _ _ HT Hy).
    specialize (HA 0%nat ltac:(cbn; lia)). cbn [firstn sumZ fold_right] in HA.
    replace (o + Z.of_nat 0) with o in HA by lia. rewrite HA. lia.
  - apply IH. intros j Hj. specialize (HA (S j) ltac:(cbn; lia)).
    replace (o + 1 + Z.of_nat j) with (o + Z.of_nat (S j)) by lia. rewrite HA.
    cbn [map firstn sumZ fold_right]. fold (sumZ (firstn j (map chrom_end rest))). lia.
Qed.

Lemma start_abspos_sa NB : ValidBlocks NB ->
  start_abspos (concat NB) (map chrom_end NB) = sa_from 0 NB.
Proof.
  intros HV. unfold start_abspos. apply (start_abspos_sa_gen _ 0); [now apply valid_blocksfrom|].
  intros j Hj. unfold chrom_abspos, znth. rewrite Z.add_0_l, Nat2Z.id.
  rewrite choff_nth by (rewrite map_length; lia). lia.
Qed.

(** what [ValidBlocks] leaves of one block once its chromosome id and its position in the table are forgotten *)
Definition GoodBlock (b : list bin) : Prop := b <> [] /\ exists c, Tiled c 0 b.

Lemma valid_goodblocks NB : ValidBlocks NB -> Forall GoodBlock NB.
Proof.
  intros HV. apply Forall_forall. intros b Hb. apply In_nth_error in Hb as [i Hi].
  destruct (HV i b Hi) as [Hne HT]. split; [exact Hne|eauto].
Qed.

Lemma goodblock_end b : GoodBlock b -> 0 < chrom_end b /\ forall y, In y b -> 0 <= bstart y /\ bstart y < chrom_end b /\ bend y <= chrom_end b.
Proof.
  intros [Hne [c HT]]. unfold chrom_end. rewrite last_nth. fold bin0.
  assert (Hl : (0 < length b)%nat) by (destruct b; [congruence|cbn; lia]).
  assert (Hy : forall y, In y b -> 0 <= bstart y /\ bstart y < bend y /\ bend y <= bend (nth (length b - 1) b bin0)).
  { intros y Hy. apply In_nth_error in Hy as [i Hi].
    assert (Hil : (i < length b)%nat) by (apply nth_error_Some; congruence).
    destruct (tiled_nth c 0 b HT i y Hi) as (_ & P & _).
    pose proof (tiled_start_ge c 0 b HT y (nth_error_In _ _ Hi)) as G.
    destruct (tiled_mono c 0 b HT i (length b - 1) ltac:(lia)) as [_ M]. rewrite (nth_error_nth _ _ bin0 Hi) in M.
    lia. }
  split.
  - specialize (Hy (nth (length b - 1) b bin0) ltac:(apply nth_In; lia)). lia.
  - intros y Hin. specialize (Hy y Hin). lia.
Qed.

Lemma goodblocks_ends_nonneg NB i : Forall GoodBlock NB -> 0 <= sumZ (firstn i (map chrom_end NB)).
Proof.
  intros HF. apply sumZ_nonneg, Forall_forall. intros v Hv. apply in_firstn, in_map_iff in Hv as [b [<- Hb]].
  rewrite Forall_forall in HF. destruct (goodblock_end b (HF b Hb)) as [G _]. lia.
Qed.

(** a coordinate s inside bin q of block i, counted from the start of the genome, has exactly the bins of the blocks
    before i and the bins 0..q of block i at or before it: by induction on the blocks, each of which lies wholly
    before the next *)
Lemma ssr_sa NB : Forall GoodBlock NB ->
  forall i A nblk q y s, nth_error NB i = Some nblk -> nth_error nblk q = Some y ->
  bstart y <= s < bend y ->
  searchsorted_right (sa_from A NB) (A + sumZ (firstn i (map chrom_end NB)) + s)
  = sumZ (firstn i (map zlen NB)) + Z.of_nat q + 1.
Proof.
  induction 1 as [|b r Hb HF IH]; intros i A nblk q y s Hi Hq Hs; [now rewrite nth_error_nil' in Hi|].
  destruct (goodblock_end b Hb) as [Hce Hyb].
  destruct i as [|i]; cbn [nth_error] in Hi.
  - injection Hi as ->. cbn [map firstn sumZ fold_right sa_from]. rewrite Z.add_0_r, Z.add_0_l.
    destruct Hb as [Hne [c HT]].
    rewrite ssr_app_hd; [now apply (tiled_ssr c A s 0 nblk HT q y)|].
    destruct r as [|b' r']; [now left|right].
    inversion HF as [|? ? [Hne' [c' HT']] _]; subst. cbn [sa_from].
    destruct b' as [|z b']; [congruence|]. inversion HT'; subst. cbn [map app hd]. unfold bstart at 1; cbn [fst snd].
    specialize (Hyb y (nth_error_In _ _ Hq)). lia.
  - cbn [map firstn sa_from]. rewrite !sumZ_cons.
    pose proof (goodblocks_ends_nonneg r i HF) as Hnn.
    assert (Hs0 : 0 <= s).
    { rewrite Forall_forall in HF. destruct (goodblock_end nblk (HF nblk (nth_error_In _ _ Hi))) as [_ G].
      specialize (G y (nth_error_In _ _ Hq)). lia. }
    rewrite ssr_app_le.
    + replace (A + (chrom_end b + sumZ (firstn i (map chrom_end r))) + s)
        with ((A + chrom_end b) + sumZ (firstn i (map chrom_end r)) + s) by lia.
      rewrite (IH i (A + chrom_end b) nblk q y s Hi Hq Hs). unfold zlen. rewrite map_length. lia.
    + apply Forall_forall. intros v Hv. apply in_map_iff in Hv as [z [<- Hz]].
      specialize (Hyb z Hz). lia.
Qed.

Lemma group_bin_contains k c s blk q m x : Tiled c s blk -> nth_error blk m = Some x ->
  q * k <= Z.of_nat m < q * k + k ->
  bstart (group_bin k blk q) <= bstart x < bend (group_bin k blk q).
Proof.
  intros HT Hm Hq.
  assert (Hml : (m < length blk)%nat) by (apply nth_error_Some; congruence).
  destruct (tiled_nth c s blk HT m x Hm) as (_ & B & _).
  destruct (tiled_mono c s blk HT (Z.to_nat (q * k)) m ltac:(lia)) as [M1 _].
  destruct (tiled_mono c s blk HT m (Z.to_nat (Z.min (q * k + k) (zlen blk) - 1)) ltac:(unfold zlen; lia)) as [_ M2].
  rewrite (nth_error_nth _ _ bin0 Hm) in M1, M2. unfold group_bin, bstart, bend in *. cbn [fst snd]. lia.
Qed.

Lemma group_contains k c s blk m x : 1 <= k -> Tiled c s blk -> nth_error blk m = Some x ->
  let y := group_bin k blk (Z.of_nat m / k) in
  bstart y <= bstart x < bend y /\ bchrom x = c /\
  nth_error (coarsen_block k blk) (Z.to_nat (Z.of_nat m / k)) = Some y.
Proof.
  intros Hk HT Hm y.
  pose proof (div_lt_iff (Z.of_nat m) k 0 ltac:(lia)). pose proof (div_lt_iff (Z.of_nat m) k (Z.of_nat m / k) ltac:(lia)).
  pose proof (div_lt_iff (Z.of_nat m) k (Z.of_nat m / k + 1) ltac:(lia)).
  assert (Hml : (m < length blk)%nat) by (apply nth_error_Some; congruence).
  split; [apply (group_bin_contains k c s blk _ m); auto; lia|]. split; [now apply (tiled_nth c s blk HT m x Hm)|].
  apply coarsen_block_nth; [exact Hk|]. pose proof (cdiv_le_iff (zlen blk) k (Z.of_nat m / k) ltac:(lia)). unfold zlen in *. lia.
Qed.

Section Rebin.
  Variable blocks : list (list bin).
  Variable k : Z.
  Hypothesis Hk : 1 <= k.
  Hypothesis HV : ValidBlocks blocks.
  Let NB := map (coarsen_block k) blocks.
  Let sizes := map chrom_end blocks.

  Lemma NB_valid : ValidBlocks NB.
  Proof. now destruct (coarsen_bins_spec blocks k Hk HV) as (_ & A & _). Qed.
  Lemma NB_ends : map chrom_end NB = sizes.
  Proof. now destruct (coarsen_bins_spec blocks k Hk HV) as (_ & _ & A & _). Qed.

  (** the searchsorted path, whether or not the new table reports a bin size *)
  Lemma rebin_search_index i blk m x :
    nth_error blocks i = Some blk -> nth_error blk m = Some x ->
    rebin_bin_search (concat NB) sizes x = sumZ (firstn i (map zlen NB)) + Z.of_nat m / k.
  Proof.
    intros Hi Hm. destruct (HV i blk Hi) as [Hne HT].
    destruct (group_contains k _ 0 blk m x Hk HT Hm) as (Hin & Hc & Hq).
    unfold rebin_bin_search. rewrite <- NB_ends at 1. rewrite (start_abspos_sa NB NB_valid).
    rewrite Hc. unfold chrom_abspos, znth at 1. rewrite Nat2Z.id.
    rewrite choff_nth by (unfold sizes; rewrite map_length; apply Nat.lt_le_incl, nth_error_Some; congruence).
    rewrite <- NB_ends.
    assert (HiNB : nth_error NB i = Some (coarsen_block k blk)) by (unfold NB; rewrite nth_error_map, Hi; reflexivity).
    replace (sumZ (firstn i (map chrom_end NB)) + bstart x) with (0 + sumZ (firstn i (map chrom_end NB)) + bstart x) by lia.
    rewrite (ssr_sa NB (valid_goodblocks NB NB_valid) i 0 _ _ _ (bstart x) HiNB Hq Hin).
    assert (0 <= Z.of_nat m / k) by (apply Z.div_pos; lia). lia.
  Qed.

  (** the division path, taken when the new table reports a bin size *)
  Lemma rebin_div_index bs i blk m x :
    get_binsize (concat NB) = Some bs ->
    nth_error blocks i = Some blk -> nth_error blk m = Some x ->
    rebin_bin_div (concat NB) bs x = sumZ (firstn i (map zlen NB)) + Z.of_nat m / k.
  Proof.
    intros Hbs Hi Hm. destruct (HV i blk Hi) as [Hne HT].
    destruct (group_contains k _ 0 blk m x Hk HT Hm) as (Hin & Hc & Hq).
    destruct (binsize_truthful NB bs NB_valid Hbs) as [Hb Hideal].
    assert (HiNB : nth_error NB i = Some (coarsen_block k blk)) by (unfold NB; rewrite nth_error_map, Hi; reflexivity).
    specialize (Hideal i _ HiNB).
    set (q := Z.of_nat m / k) in *. assert (Hq0 : 0 <= q) by (apply Z.div_pos; lia).
    assert (Hy : group_bin k blk q = ideal_bin (Z.of_nat i) (chrom_end (coarsen_block k blk)) bs q).
    { rewrite Hideal in Hq at 1. unfold ideal_chrom in Hq. rewrite nth_error_map in Hq.
      destruct (nth_error (zrange 0 _) (Z.to_nat q)) as [q'|] eqn:E; [|discriminate].
      assert (Hlt : (Z.to_nat q < Z.to_nat (cdiv (chrom_end (coarsen_block k blk)) bs))%nat).
      { rewrite <- (zrange_length 0 (Z.to_nat (cdiv _ bs))). apply nth_error_Some. congruence. }
      rewrite nth_error_zrange in E by exact Hlt. injection E as <-. cbn in Hq.
      rewrite Z2Nat.id in Hq by lia. congruence. }
    rewrite Hy in Hin. unfold ideal_bin, bstart at 1, bend at 1 in Hin; cbn [fst snd] in Hin.
    unfold rebin_bin_div. rewrite Hc.
    change (chrom_binoffset (concat NB)) with (chrom_offset (concat NB)). rewrite (chrom_offset_valid NB NB_valid).
    unfold znth. rewrite Nat2Z.id.
    rewrite choff_nth by (rewrite map_length; unfold NB; rewrite map_length; apply Nat.lt_le_incl, nth_error_Some; congruence).
    f_equal. symmetry. apply Z.div_unique_pos with (r := bstart x - q * bs); lia.
  Qed.

  Lemma itf_blocks (g : bin -> Z) : forall bl off,
    (forall i blk m x, nth_error bl i = Some blk -> nth_error blk m = Some x ->
       g x = off + sumZ (firstn i (map (fun b => cdiv (zlen b) k) bl)) + Z.of_nat m / k) ->
    map g (concat bl) = index_table_from off k (map zlen bl).
  Proof.
    induction bl as [|b r IH]; intros off Hg; [reflexivity|].
    cbn [concat map index_table_from]. rewrite map_app. f_equal.
    - apply nth_error_ext'. intros m. rewrite !nth_error_map. unfold zlen. rewrite Nat2Z.id.
      destruct (nth_error b m) as [x|] eqn:E.
      + rewrite nth_error_zrange by (apply nth_error_Some; congruence). cbn [option_map].
        rewrite (Hg 0%nat b m x eq_refl E). cbn [firstn sumZ fold_right]. rewrite Z.add_0_l, Z.add_0_r. reflexivity.
      + now rewrite (proj2 (nth_error_None (zrange 0 (length b)) m)) by (rewrite zrange_length; now apply nth_error_None).
    - apply IH. intros i blk m x Hi Hm. rewrite (Hg (S i) blk m x Hi Hm).
      cbn [map firstn]. rewrite sumZ_cons. lia.
  Qed.

  Lemma NB_lens : map zlen NB = map (fun b => cdiv (zlen b) k) blocks.
  Proof. now destruct (coarsen_bins_spec blocks k Hk HV) as (_ & _ & _ & A). Qed.

  Theorem rebin_search_table :
    map (rebin_bin_search (concat NB) sizes) (concat blocks) = index_table (map zlen blocks) k.
  Proof.
    unfold index_table. apply itf_blocks. intros i blk m x Hi Hm.
    rewrite (rebin_search_index i blk m x Hi Hm), NB_lens. lia.
  Qed.

  Theorem rebin_div_table bs : get_binsize (concat NB) = Some bs ->
    map (rebin_bin_div (concat NB) bs) (concat blocks) = index_table (map zlen blocks) k.
  Proof.
    intros Hbs. unfold index_table. apply itf_blocks. intros i blk m x Hi Hm.
    rewrite (rebin_div_index bs i blk m x Hbs Hi Hm), NB_lens. lia.
  Qed.

  (** re-binning by start coordinate, as _aggregate does it, is the index reading *)
  Theorem rebin_eq_index :
    rebin_table (concat blocks) sizes k = index_table (map zlen blocks) k.
  Proof.
    unfold rebin_table, sizes. destruct (coarsen_bins_spec blocks k Hk HV) as (-> & _).
    fold NB. fold sizes. unfold rebin_bin. destruct (get_binsize (concat NB)) as [bs|] eqn:E.
    - apply (rebin_div_table bs E).
    - apply rebin_search_table.
  Qed.
End Rebin.

Definition InRangeRows (n : Z) (px : list pixel) : Prop := Forall (fun p => 0 <= row p < n) px.

Definition InRange (n : Z) (px : list pixel) : Prop :=
  Forall (fun p => 0 <= row p < n /\ 0 <= col p < n) px.

Lemma inrange_rows n px : InRange n px -> InRangeRows n px.
Proof. unfold InRange, InRangeRows. apply Forall_impl. tauto. Qed.
Lemma inrange_b_sound n px : inrange_b n px = true -> InRange n px.
Proof.
  unfold inrange_b, InRange. rewrite forallb_forall, Forall_forall. intros H p Hp.
  specialize (H p Hp). lia.
Qed.

Lemma valid_lens blocks : ValidBlocks blocks -> Forall (fun n => 1 <= n) (map zlen blocks).
Proof.
  intros HV. apply Forall_forall. intros n Hn. apply in_map_iff in Hn as [b [<- Hb]].
  apply In_nth_error in Hb as [i Hi]. destruct (HV i b Hi) as [Hne _].
  unfold zlen. destruct b; [congruence|cbn; lia].
Qed.

Lemma zlens_nonneg {A} (ls : list (list A)) : Forall (fun n => 0 <= n) (map zlen ls).
Proof. apply Forall_forall. intros n Hn. apply in_map_iff in Hn as [l [<- _]]. unfold zlen. lia. Qed.

Lemma itf_compose k1 k2 : 1 <= k1 -> 1 <= k2 ->
  forall lens, Forall (fun n => 0 <= n) lens ->
  forall P off1 off, zlen P = off1 ->
  map (fun v => znth (P ++ index_table_from off k2 (map (fun n => cdiv n k1) lens)) v 0)
      (index_table_from off1 k1 lens) = index_table_from off (k1 * k2) lens.
Proof.
  intros H1 H2. induction 1 as [|n r Hn HF IH]; intros P off1 off HP; [reflexivity|].
  cbn [index_table_from map]. rewrite map_app. f_equal.
  - rewrite map_map. apply map_ext_in. intros m Hm. apply in_zrange in Hm.
    assert (Hq : 0 <= m / k1 < cdiv n k1).
    { split; [apply Z.div_pos; lia|apply div_lt_cdiv; lia]. }
    unfold znth, zlen in *. rewrite app_nth2 by lia.
    replace (Z.to_nat (off1 + m / k1) - length P)%nat with (Z.to_nat (m / k1)) by lia.
    rewrite app_nth1 by (rewrite map_length, zrange_length; lia).
    rewrite (nth_error_nth _ _ 0 (x := off + (m / k1) / k2)).
    + rewrite Z.div_div by lia. reflexivity.
    + rewrite nth_error_map, nth_error_zrange by lia. cbn. do 3 f_equal. lia.
  - rewrite <- (cdiv_cdiv n k1 k2) by lia.
    rewrite <- (IH (P ++ map (fun m => off + m / k2) (zrange 0 (Z.to_nat (cdiv n k1)))) (off1 + cdiv n k1) (off + cdiv (cdiv n k1) k2)).
    + rewrite <- app_assoc. reflexivity.
    + unfold zlen in *. rewrite app_length, map_length, zrange_length.
      pose proof (cdiv_nonneg n k1 Hn ltac:(lia)). lia.
Qed.

Theorem index_table_compose lens k1 k2 : 1 <= k1 -> 1 <= k2 -> Forall (fun n => 0 <= n) lens ->
  map (fun v => znth (index_table (map (fun n => cdiv n k1) lens) k2) v 0) (index_table lens k1)
  = index_table lens (k1 * k2).
Proof.
  intros H1 H2 HF. unfold index_table.
  apply (itf_compose k1 k2 H1 H2 lens HF [] 0 0). reflexivity.
Qed.

Theorem coarsen_block_compose k1 k2 blk : 1 <= k1 -> 1 <= k2 ->
  coarsen_block k2 (coarsen_block k1 blk) = coarsen_block (k1 * k2) blk.
Proof.
  intros H1 H2. pose proof (fun q Hq => nth_error_nth _ _ bin0 (coarsen_block_nth k1 blk q H1 Hq)) as Hnth.
  unfold coarsen_block at 1 3. rewrite coarsen_block_length, cdiv_cdiv by (pose proof (zlen_nonneg blk); lia).
  apply map_ext_in. intros q Hq. apply in_zrange in Hq.
  unfold group_bin at 1. rewrite coarsen_block_length by exact H1.
  remember (zlen blk) as n eqn:En. remember (cdiv n k1) as N1 eqn:EN.
  assert (Hn : 0 <= n) by (subst n; apply zlen_nonneg).
  pose proof (cdiv_bracket n k1 ltac:(lia)) as Hbr. rewrite <- EN in Hbr.
  pose proof (cdiv_le_iff n (k1 * k2) q ltac:(nia)) as Hqk.
  assert (Hq2 : 0 <= q * k2 < N1) by nia.
  rewrite !Hnth by lia. unfold group_bin, bchrom, bstart, bend; cbn [fst snd]. rewrite <- En.
  replace (q * k2 * k1) with (q * (k1 * k2)) by lia.
  replace (Z.min ((Z.min (q * k2 + k2) N1 - 1) * k1 + k1) n) with (Z.min (q * (k1 * k2) + k1 * k2) n); [reflexivity|].
  (* the last coarse bin of the group is a whole one, or the last of the chromosome *)
  destruct (Z_le_gt_dec (q * k2 + k2) N1); [rewrite (Z.min_l (q * k2 + k2) N1) by lia; f_equal; lia|].
  rewrite (Z.min_r (q * k2 + k2) N1), !Z.min_r by nia. reflexivity.
Qed.

Lemma index_table_range lens k i : 1 <= k -> Forall (fun n => 0 <= n) lens -> 0 <= i < sumZ lens ->
  0 <= znth (index_table lens k) i 0 < sumZ (map (fun n => cdiv n k) lens).
Proof.
  intros Hk HF Hi. unfold index_table.
  assert (Hin : In (znth (index_table_from 0 k lens) i 0) (index_table_from 0 k lens)).
  { unfold znth. apply nth_In. pose proof (itf_length k lens HF 0) as Hl. unfold zlen in Hl. lia. }
  pose proof (itf_lower k lens Hk HF 0 _ Hin). pose proof (itf_upper k lens Hk HF 0 _ Hin). lia.
Qed.

Section GenericExact.
  Context {V : Type}.
  Notation recd := (key * V)%type.
  Variable agg : list V -> V.

  (** the key columns of a table, as a count-less pixel table: edges and alignment only depend on it *)
  Definition shadow (px : list recd) : list pixel := map (fun p => (fst p, 0)) px.

  Lemma shadow_length px : zlen (shadow px) = zlen px.
  Proof. unfold zlen, shadow. now rewrite map_length. Qed.

  Lemma bin1_offset_shadow n px : bin1_offset_g n px = bin1_offset n (shadow px).
  Proof.
    unfold bin1_offset_g, bin1_offset. apply map_ext. intros i. unfold zlen, shadow. f_equal.
    rewrite filter_map_swap, map_length. reflexivity.
  Qed.

  Lemma edges_shadow t px k cs : coarsener_edges_g t px k cs = coarsener_edges t (shadow px) k cs.
  Proof. unfold coarsener_edges_g, coarsener_edges. now rewrite bin1_offset_shadow. Qed.

  Lemma shadow_slice px a b : shadow (slice px a b) = slice (shadow px) a b.
  Proof. unfold shadow, slice. now rewrite skipn_map, firstn_map. Qed.

  Lemma inrange_shadow n px : InRange n (shadow px) <-> Forall (fun p => 0 <= grow p < n /\ 0 <= gcol p < n) px.
  Proof. apply Forall_map. Qed.

  Lemma inrangerows_shadow n px : InRangeRows n (shadow px) <-> Forall (fun p => 0 <= grow p < n) px.
  Proof. apply Forall_map. Qed.

  Section Spans.
    Variable tbl : list Z.
    Variable px : list recd.
    Let f := fun r => znth tbl r 0.

    Lemma gb_keys_before c (a b : list recd) :
      AlignedCut f (shadow px) c ->
      (forall p, In p a -> In (fst p, 0) (firstn c (shadow px))) ->
      (forall q, In q b -> In (fst q, 0) (skipn c (shadow px))) ->
      forall k1 k2, In k1 (map fst (map (grekey tbl) a)) -> In k2 (map fst (map (grekey tbl) b)) -> klt k1 k2.
    Proof.
      intros HA Ha Hb k1 k2 H1 H2. rewrite map_map in H1, H2.
      apply in_map_iff in H1 as [p [<- Hp]]. apply in_map_iff in H2 as [q [<- Hq]].
      left. cbn [fst grekey]. apply (HA (fst p, 0) (fst q, 0)); auto.
    Qed.

    Lemma spans_exact e : forall a,
      StronglySorted Z.lt (a :: e) -> 0 <= a -> last (a :: e) 0 = zlen px ->
      Forall (fun c => AlignedCut f (shadow px) (Z.to_nat c)) (a :: e) ->
      concat (map (aggregate_span_g agg px tbl) (spans (a :: e))) =
      groupby_agg agg (map (grekey tbl) (skipn (Z.to_nat a) px)).
    Proof.
      induction e as [|b r IH]; intros a HS Ha Hlast Hal.
      - cbn [last] in Hlast. subst a. unfold zlen. rewrite Nat2Z.id, skipn_all. reflexivity.
      - rewrite spans_cons. cbn [map concat].
        inversion HS as [|? ? HS' Hall]; subst. inversion Hall as [|? ? Hab _]; subst.
        inversion Hal as [|? ? _ Hal']; subst.
        rewrite IH; auto; [|lia].
        unfold aggregate_span_g at 1. cbn [fst snd].
        rewrite (skipn_slice px a b) by lia. rewrite map_app. symmetry. apply groupby_agg_app.
        inversion Hal' as [|? ? Hb _]; subst.
        apply (gb_keys_before (Z.to_nat b)); auto.
        + intros p Hp. apply (slice_in_firstn (shadow px) a b); [lia|].
          rewrite <- shadow_slice. unfold shadow. apply in_map_iff. exists p. auto.
        + intros q Hq. unfold shadow. rewrite skipn_map. apply in_map_iff. exists q. auto.
    Qed.
  End Spans.

  Theorem coarsen_stream_exact lens px k cs bs :
    1 <= k -> 1 <= cs -> 1 <= bs ->
    Forall (fun n => 1 <= n) lens -> RowSorted (shadow px) -> Forall (fun p => 0 <= row p < sumZ lens) (shadow px) ->
    let tbl := index_table lens k in
    let edges := greedy_prune_partition (coarse_edges (0 :: cumsum lens) (bin1_offset_g (sumZ lens) px) k) cs in
    concat (coarsener_iter_g agg px tbl edges bs) = groupby_agg agg (map (grekey tbl) px).
  Proof.
    intros Hk Hcs Hbs Hlens HS Hrows tbl edges.
    destruct (coarse_edges_facts lens (shadow px) k Hk Hlens HS Hrows) as ((rest & HE) & HSE & Hlast & Hal).
    unfold edges. rewrite bin1_offset_shadow. rewrite HE in *.
    destruct (prune_subsequence rest cs HSE Hcs) as ((idx & Hp & Hidxs & Hidxr) & Hhd & Hl & Hps).
    set (p := greedy_prune_partition (0 :: rest) cs) in *.
    unfold coarsener_iter_g. rewrite iter_batches by exact Hbs.
    assert (Halp : Forall (fun c => AlignedCut (fun r => znth tbl r 0) (shadow px) (Z.to_nat c)) p).
    { rewrite Hp. apply Forall_forall. intros c Hc. apply in_map_iff in Hc as [i [<- Hi]].
      rewrite Forall_forall in Hal, Hidxr. apply Hal. unfold znth. apply nth_In.
      specialize (Hidxr i Hi). unfold zlen in Hidxr. lia. }
    rewrite Hlast, shadow_length in Hl.
    destruct p as [|a e] eqn:Ep.
    - cbn [last] in Hl. destruct px; [reflexivity|]. unfold zlen in Hl. cbn in Hl. lia.
    - cbn [hd] in Hhd. subst a.
      rewrite (spans_exact tbl px e 0 Hps ltac:(lia)); [reflexivity|exact Hl|exact Halp].
  Qed.

  (** coarsen_cooler with ANY aggregation: the concatenated chunk stream is the group-by of the pixels
      re-keyed by index — each new pixel's value is agg of exactly the old values that fall into it, in
      storage order — for every valid (fixed or variable) bin table, k, chunk size and batch size *)
  Theorem coarsen_exact blocks px k cs bs :
    1 <= k -> 1 <= cs -> 1 <= bs -> ValidBlocks blocks ->
    RowSorted (shadow px) -> InRangeRows (zlen (concat blocks)) (shadow px) ->
    coarsen_pixels_g agg (concat blocks) (map chrom_end blocks) px k cs bs = coarsen_spec_g agg (map zlen blocks) px k.
  Proof.
    intros Hk Hcs Hbs HV HS Hr. unfold coarsen_pixels_g, coarsener_edges_g, coarsen_spec_g.
    rewrite (rebin_eq_index blocks k Hk HV), (chrom_offset_valid blocks HV), zlen_concat.
    apply coarsen_stream_exact; auto.
    - now apply valid_lens.
    - unfold InRangeRows in Hr. now rewrite zlen_concat in Hr.
  Qed.

  Corollary coarsen_exact_chunk_independent blocks px k cs1 bs1 cs2 bs2 :
    1 <= k -> 1 <= cs1 -> 1 <= bs1 -> 1 <= cs2 -> 1 <= bs2 -> ValidBlocks blocks ->
    RowSorted (shadow px) -> InRangeRows (zlen (concat blocks)) (shadow px) ->
    coarsen_pixels_g agg (concat blocks) (map chrom_end blocks) px k cs1 bs1 =
    coarsen_pixels_g agg (concat blocks) (map chrom_end blocks) px k cs2 bs2.
  Proof. intros. now rewrite !coarsen_exact by assumption. Qed.

  Lemma shadow_keys (l : list recd) : keys (shadow l) = map fst l.
  Proof. unfold keys, shadow. rewrite map_map. reflexivity. Qed.

  Lemma groupby_rowsorted (l : list recd) : RowSorted (shadow (groupby_agg agg l)).
  Proof. apply ssorted_rows. unfold SSorted. rewrite shadow_keys. apply groupby_agg_sorted. Qed.

  Lemma coarsen_spec_inrange_g lens (px : list recd) k : 1 <= k -> Forall (fun n => 0 <= n) lens ->
    InRange (sumZ lens) (shadow px) ->
    InRange (sumZ (map (fun n => cdiv n k) lens)) (shadow (coarsen_spec_g agg lens px k)).
  Proof.
    intros Hk HF Hr. rewrite inrange_shadow, Forall_forall in Hr |- *. intros p Hp.
    apply (in_map fst), groupby_agg_keys in Hp. rewrite map_map in Hp. apply in_map_iff in Hp as [p0 [E Hp0]].
    destruct (Hr p0 Hp0). unfold grow, gcol. rewrite <- E. split; apply index_table_range; auto.
  Qed.

  Lemma coarsen_cooler_g_valid blocks (px : list recd) k cs bs :
    1 <= k -> 1 <= cs -> 1 <= bs -> ValidBlocks blocks ->
    RowSorted (shadow px) -> InRange (zlen (concat blocks)) (shadow px) ->
    let nb := map (coarsen_block k) blocks in
    let out := coarsen_spec_g agg (map zlen blocks) px k in
    coarsen_cooler_g agg (concat blocks) (map chrom_end blocks) px k cs bs = (concat nb, out) /\
    ValidBlocks nb /\ map chrom_end nb = map chrom_end blocks /\
    map zlen nb = map (fun n => cdiv n k) (map zlen blocks) /\
    RowSorted (shadow out) /\ InRange (zlen (concat nb)) (shadow out).
  Proof.
    intros Hk Hcs Hbs HV HS Hr nb out.
    destruct (coarsen_bins_spec blocks k Hk HV) as (E & V1 & Ends & Lens). fold nb in E, V1, Ends, Lens.
    rewrite <- (map_map zlen (fun n => cdiv n k)) in Lens.
    split; [|split; [exact V1|split; [exact Ends|split; [exact Lens|split]]]].
    - unfold coarsen_cooler_g. rewrite E, coarsen_exact by auto using inrange_rows. reflexivity.
    - apply groupby_rowsorted.
    - rewrite zlen_concat in *. rewrite Lens. apply coarsen_spec_inrange_g; auto. apply zlens_nonneg.
  Qed.
End GenericExact.

Lemma shadow_pixel_rows (px : list pixel) : map row (shadow px) = map row px.
Proof. unfold shadow. rewrite map_map. reflexivity. Qed.

Lemma rowsorted_shadow (px : list pixel) : RowSorted (shadow px) <-> RowSorted px.
Proof. unfold RowSorted. now rewrite shadow_pixel_rows. Qed.

(** pixel tables with the summed count are the instance V = Z, agg = sumZ *)
Theorem coarsen_pixels_sum t sizes (px : list pixel) k cs bs :
  coarsen_pixels_g sumZ t sizes px k cs bs = coarsen_pixels t sizes px k cs bs.
Proof.
  unfold coarsen_pixels_g, coarsen_pixels, coarsener_iter_g, coarsener_iter, coarsener_edges_g, coarsener_edges. f_equal.
  change (bin1_offset_g (zlen t) px) with (bin1_offset (zlen t) px).
  f_equal. apply map_ext. intros l. apply map_ext. intros s.
  unfold aggregate_span_g, aggregate_span. rewrite groupby_sum_aggregate. reflexivity.
Qed.

Lemma coarsen_cooler_sum t sizes (px : list pixel) k cs bs :
  coarsen_cooler_g sumZ t sizes px k cs bs = coarsen_cooler t sizes px k cs bs.
Proof. unfold coarsen_cooler_g, coarsen_cooler. now rewrite coarsen_pixels_sum. Qed.

Lemma coarsen_spec_sum lens (px : list pixel) k : coarsen_spec_g sumZ lens px k = coarsen_spec lens px k.
Proof. apply groupby_sum_aggregate. Qed.

(** coarsen_cooler's pixel table is the canonical aggregate of the pixels re-keyed by INDEX
    (old bin m of chromosome c -> new_off c + m / k), for every chunk size and batch size *)
Theorem coarsen_canon blocks px k cs bs :
  1 <= k -> 1 <= cs -> 1 <= bs -> ValidBlocks blocks ->
  RowSorted px -> InRangeRows (zlen (concat blocks)) px ->
  coarsen_pixels (concat blocks) (map chrom_end blocks) px k cs bs = coarsen_spec (map zlen blocks) px k.
Proof.
  intros. rewrite <- coarsen_pixels_sum, <- coarsen_spec_sum.
  apply coarsen_exact; auto; [now apply rowsorted_shadow|now apply inrangerows_shadow].
Qed.

Definition total (l : list pixel) : Z := sumZ (map val l).


Section GenericCompose.
  Context {V : Type}.
  Notation recd := (key * V)%type.
  Variable agg : list V -> V.
  Hypothesis Hperm : AggPerm agg.
  Hypothesis Hdecomp : AggDecomp agg.

  Definition mapkey_g (gk : key -> key) (p : recd) : recd := (gk (fst p), snd p).
  Definition gkey (tbl : list Z) (kk : key) : key := (znth tbl (fst kk) 0, znth tbl (snd kk) 0).
  Definition ungroup1 (g : key * list V) : list recd := map (fun v => (fst g, v)) (snd g).

  Lemma perm_ungroup_gins k v g :
    Permutation (concat (map ungroup1 (gins k v g))) ((k, v) :: concat (map ungroup1 g)).
  Proof.
    induction g as [|[k' vs] t IH]; cbn [gins map concat]; [reflexivity|].
    destruct (kcmp k k') eqn:E; cbn [map concat].
    - apply kcmp_eq in E. subst k'. unfold ungroup1 at 1 3. cbn [fst snd]. rewrite map_app. cbn [map].
      rewrite <- app_assoc. cbn [app]. symmetry. apply Permutation_middle.
    - reflexivity.
    - rewrite IH. symmetry. apply Permutation_middle.
  Qed.

  Lemma perm_ungroup (l : list recd) : Permutation (concat (map ungroup1 (group l))) l.
  Proof.
    unfold group.
    assert (H : forall acc, Permutation (concat (map ungroup1 (fold_left (fun acc p => gins (fst p) (snd p) acc) l acc)))
                                         (concat (map ungroup1 acc) ++ l)).
    { induction l as [|[k v] l IH]; intros acc; cbn [fold_left]; [now rewrite app_nil_r|].
      rewrite IH. cbn [fst snd]. rewrite perm_ungroup_gins. cbn [app]. apply Permutation_middle. }
    rewrite H. reflexivity.
  Qed.

  Lemma group_nonempty (l : list recd) : Forall (fun g => snd g <> []) (group l).
  Proof.
    unfold group.
    assert (H : forall acc, Forall (fun g : key * list V => snd g <> []) acc ->
                 Forall (fun g : key * list V => snd g <> []) (fold_left (fun acc p => gins (fst p) (snd p) acc) l acc)).
    { induction l as [|[k v] l IH]; intros acc HA; cbn [fold_left]; [exact HA|]. apply IH. cbn [fst snd].
      clear IH. induction HA as [|[k' vs] t Hg HA IHa]; cbn [gins]; [constructor; [discriminate|constructor]|].
      destruct (kcmp k k'); constructor; auto; cbn [snd] in *.
      - intros X. apply app_eq_nil in X as [_ X]. discriminate.
      - discriminate. }
    apply H. constructor.
  Qed.

  Lemma group_const K (vs : list V) : vs <> [] -> group (map (fun v => (K, v)) vs) = [(K, vs)].
  Proof.
    intros Hne. unfold group.
    assert (H : forall ws acc0, fold_left (fun acc (p : recd) => gins (fst p) (snd p) acc) (map (fun v => (K, v)) ws) [(K, acc0)] = [(K, acc0 ++ ws)]).
    { induction ws as [|w ws IH]; intros acc0; cbn [map fold_left]; [now rewrite app_nil_r|].
      cbn [fst snd gins]. rewrite kcmp_refl, IH, <- app_assoc. reflexivity. }
    destruct vs as [|v vs]; [congruence|]. cbn [map fold_left fst snd gins]. now rewrite H.
  Qed.

  Theorem groupby_mapkey gk (l : list recd) :
    groupby_agg agg (map (mapkey_g gk) (groupby_agg agg l)) = groupby_agg agg (map (mapkey_g gk) l).
  Proof.
    set (Gs := map (fun g => map (mapkey_g gk) (ungroup1 g)) (group l)).
    assert (E1 : concat (map (groupby_agg agg) Gs) = map (mapkey_g gk) (groupby_agg agg l)).
    { unfold Gs, groupby_agg at 2. rewrite !map_map. pose proof (group_nonempty l) as Hne.
      induction Hne as [|[k vs] t Hg _ IH]; [reflexivity|]. cbn [map concat]. rewrite IH. f_equal.
      unfold ungroup1. cbn [fst snd] in *. rewrite map_map. unfold mapkey_g at 1. cbn [fst snd].
      unfold groupby_agg. rewrite (group_const (gk k) vs Hg). reflexivity. }
    assert (E2 : Permutation (concat Gs) (map (mapkey_g gk) l)).
    { unfold Gs. rewrite <- map_map, <- concat_map. apply Permutation_map. apply perm_ungroup. }
    rewrite <- E1, (groupby_agg_two_level agg Hdecomp Gs).
    apply (groupby_agg_perm agg Hperm). exact E2.
  Qed.

  Lemma grekey_mapkey tbl (l : list recd) : map (grekey tbl) l = map (mapkey_g (gkey tbl)) l.
  Proof. apply map_ext. intros p. reflexivity. Qed.

  Theorem coarsen_spec_compose_g lens (px : list recd) k1 k2 :
    1 <= k1 -> 1 <= k2 -> Forall (fun n => 0 <= n) lens -> InRange (sumZ lens) (shadow px) ->
    coarsen_spec_g agg (map (fun n => cdiv n k1) lens) (coarsen_spec_g agg lens px k1) k2 = coarsen_spec_g agg lens px (k1 * k2).
  Proof.
    intros H1 H2 HF Hr. unfold coarsen_spec_g.
    rewrite (grekey_mapkey (index_table (map (fun n => cdiv n k1) lens) k2)), groupby_mapkey, <- grekey_mapkey.
    f_equal. rewrite map_map. apply map_ext_in. intros p Hp.
    unfold InRange in Hr. rewrite Forall_forall in Hr.
    destruct (Hr (fst p, 0) ltac:(unfold shadow; apply in_map_iff; exists p; auto)) as [Rr Rc].
    unfold row, col in Rr, Rc. cbn [fst snd] in Rr, Rc.
    pose proof (index_table_compose lens k1 k2 H1 H2 HF) as Hc.
    assert (Hlen : zlen (index_table lens k1) = sumZ lens) by (unfold index_table; now apply itf_length).
    assert (Hz : forall i, 0 <= i < sumZ lens ->
              znth (index_table (map (fun n => cdiv n k1) lens) k2) (znth (index_table lens k1) i 0) 0
              = znth (index_table lens (k1 * k2)) i 0).
    { intros i Hi. rewrite <- Hc. unfold znth at 3.
      symmetry. apply nth_error_nth. rewrite nth_error_map.
      rewrite (nth_error_nth' (index_table lens k1) 0) by (unfold zlen in Hlen; lia). reflexivity. }
    unfold grekey, grow, gcol. cbn [fst snd]. rewrite !Hz by assumption. reflexivity.
  Qed.

  (** coarsening commutes with merging (merge = group-by of the concatenated inputs, C07) *)
  Theorem coarsen_merge_commute_g lens (a b : list recd) k :
    coarsen_spec_g agg lens (groupby_agg agg (a ++ b)) k =
    groupby_agg agg (coarsen_spec_g agg lens a k ++ coarsen_spec_g agg lens b k).
  Proof.
    unfold coarsen_spec_g. set (T := index_table lens k).
    rewrite (grekey_mapkey T (groupby_agg agg (a ++ b))), groupby_mapkey, <- grekey_mapkey, map_app.
    pose proof (groupby_agg_two_level agg Hdecomp [map (grekey T) a; map (grekey T) b]) as H.
    cbn [map concat] in H. rewrite !app_nil_r in H. exact (eq_sym H).
  Qed.

  (** the model of coarsen_cooler with any composing aggregation: k1 then k2 = k1*k2 *)
  Theorem coarsen_compose_g blocks (px : list recd) k1 k2 cs1 bs1 cs2 bs2 cs bs :
    1 <= k1 -> 1 <= k2 -> 1 <= cs1 -> 1 <= bs1 -> 1 <= cs2 -> 1 <= bs2 -> 1 <= cs -> 1 <= bs ->
    ValidBlocks blocks -> RowSorted (shadow px) -> InRange (zlen (concat blocks)) (shadow px) ->
    let sizes := map chrom_end blocks in
    let c1 := coarsen_cooler_g agg (concat blocks) sizes px k1 cs1 bs1 in
    coarsen_cooler_g agg (fst c1) sizes (snd c1) k2 cs2 bs2 = coarsen_cooler_g agg (concat blocks) sizes px (k1 * k2) cs bs.
  Proof.
    intros H1 H2 Hc1 Hb1 Hc2 Hb2 Hc Hb HV HS Hr sizes c1.
    destruct (coarsen_cooler_g_valid agg blocks px k1 cs1 bs1) as (E1 & V1 & Ends1 & Lens1 & S1 & R1); auto.
    destruct (coarsen_cooler_g_valid agg blocks px (k1 * k2) cs bs) as (E12 & _); auto; [nia|].
    unfold c1, sizes. rewrite E1, E12. cbn [fst snd]. rewrite <- Ends1.
    destruct (coarsen_cooler_g_valid agg _ _ k2 cs2 bs2 H2 Hc2 Hb2 V1 S1 R1) as (E2 & _). rewrite E2. f_equal.
    - rewrite map_map. f_equal. apply map_ext. intros blk. now apply coarsen_block_compose.
    - rewrite Lens1. apply coarsen_spec_compose_g; auto; [apply zlens_nonneg|now rewrite <- zlen_concat].
  Qed.
End GenericCompose.

(** max and min together: [sel] picks the more extreme of two, [R x y] = "y is at least as extreme as x".
    agg_max and agg_min fold from the left over a non-empty list (agg_col AMax / AMin of Model/Merge.v fold from
    the right with the head as seed); the fold selects an extremum, and the laws follow in Proofs/GroupBy.v. *)
Section Extremum.
  Variable sel : Z -> Z -> Z.
  Variable R : Z -> Z -> Prop.
  Hypothesis sel_pick : forall a b, sel a b = a \/ sel a b = b.
  Hypothesis sel_l : forall a b, R a (sel a b).
  Hypothesis sel_r : forall a b, R b (sel a b).
  Hypothesis R_refl : forall a, R a a.
  Hypothesis R_trans : forall a b c, R a b -> R b c -> R a c.

  Lemma fold_sel_spec r : forall x, In (fold_left sel r x) (x :: r) /\ forall y, In y (x :: r) -> R y (fold_left sel r x).
  Proof.
    induction r as [|y r IH]; intros x; cbn [fold_left].
    - split; [now left|]. intros y [<-|[]]. apply R_refl.
    - destruct (IH (sel x y)) as [A B]. split.
      + destruct A as [A|A]; [|right; right; exact A]. rewrite <- A.
        destruct (sel_pick x y) as [ -> | -> ]; [now left|right; now left].
      + intros z [<-|[<-|Hz]]; [eapply R_trans; [apply sel_l|]|eapply R_trans; [apply sel_r|]|]; apply B; auto using in_eq, in_cons.
  Qed.

  Lemma aggx_spec : IsExtremum R (fun l => match l with [] => 0 | x :: r => fold_left sel r x end).
  Proof. intros [|x r] N; [contradiction|apply fold_sel_spec]. Qed.
End Extremum.

Lemma agg_max_extremum : IsExtremum Z.le agg_max. Proof. apply (aggx_spec Z.max); intros; lia. Qed.
Lemma agg_min_extremum : IsExtremum Z.ge agg_min. Proof. apply (aggx_spec Z.min); intros; lia. Qed.

Lemma agg_max_perm : AggPerm agg_max.
Proof. exact (extremum_perm Z.le _ Z.le_antisymm agg_max_extremum). Qed.
Lemma agg_max_composes : AggComposes agg_max.
Proof. exact (extremum_composes Z.le _ Z.le_antisymm agg_max_extremum). Qed.
Lemma agg_min_perm : AggPerm agg_min.
Proof. apply (extremum_perm Z.ge), agg_min_extremum. intros; lia. Qed.
Lemma agg_min_composes : AggComposes agg_min.
Proof. apply (extremum_composes Z.ge), agg_min_extremum. intros; lia. Qed.

Lemma agg_of_perm op : AggPerm (agg_of op).
Proof. destruct op; [exact sumZ_perm|apply agg_max_perm|apply agg_min_perm]. Qed.
Lemma agg_of_decomp op : AggDecomp (agg_of op).
Proof. apply compose_decomp. destruct op; [apply sumZ_composes|apply agg_max_composes|apply agg_min_composes]. Qed.

Lemma sumZ_decomp : AggDecomp sumZ.
Proof. apply compose_decomp, sumZ_composes. Qed.

(** coarsening commutes with merging (merge = canonical aggregate of the concatenated inputs) *)
Theorem coarsen_merge_commute lens a b k :
  coarsen_spec lens (aggregate (a ++ b)) k = aggregate (coarsen_spec lens a k ++ coarsen_spec lens b k).
Proof.
  rewrite <- !coarsen_spec_sum, <- !groupby_sum_aggregate. apply (coarsen_merge_commute_g sumZ sumZ_perm sumZ_decomp).
Qed.

Lemma coarsen_spec_inrange lens px k : 1 <= k -> Forall (fun n => 0 <= n) lens -> InRange (sumZ lens) px ->
  InRange (sumZ (map (fun n => cdiv n k) lens)) (coarsen_spec lens px k).
Proof.
  intros Hk HF Hr. rewrite <- coarsen_spec_sum. apply inrange_shadow, coarsen_spec_inrange_g; auto.
  now apply inrange_shadow.
Qed.

(** the model of coarsen_cooler composes: k1 then k2 = k1*k2, bins and pixels, for every valid
    (fixed or variable) bin table and any chunk/batch sizes *)
Theorem coarsen_compose blocks px k1 k2 cs1 bs1 cs2 bs2 cs bs :
  1 <= k1 -> 1 <= k2 -> 1 <= cs1 -> 1 <= bs1 -> 1 <= cs2 -> 1 <= bs2 -> 1 <= cs -> 1 <= bs ->
  ValidBlocks blocks -> RowSorted px -> InRange (zlen (concat blocks)) px ->
  let sizes := map chrom_end blocks in
  let c1 := coarsen_cooler (concat blocks) sizes px k1 cs1 bs1 in
  coarsen_cooler (fst c1) sizes (snd c1) k2 cs2 bs2 = coarsen_cooler (concat blocks) sizes px (k1 * k2) cs bs.
Proof.
  intros H1 H2 Hc1 Hb1 Hc2 Hb2 Hc Hb HV HS Hr. cbv zeta. rewrite <- !coarsen_cooler_sum.
  apply (coarsen_compose_g sumZ sumZ_perm sumZ_decomp); auto; [now apply rowsorted_shadow|now apply inrange_shadow].
Qed.

(** C09, zoomify (Model/Zoom.v).  get_multiplier_sequence refuses exactly the non-derivable requests; the level
    loop is proved once over an abstract level type with a coarsening that preserves validity, composes and does not
    depend on chunking, and instantiated with coarsen_cooler for any composing aggregation (the summed count is the
    sumZ instance); the -r grammar's progressions. *)
From Cooler Require Import Model.Zoom Proofs.BinsProofs Proofs.GroupBy Proofs.CoarsenProofs.
From Coq Require Import Sorted Permutation ZifyBool.

Lemma memZ_in x l : memZ x l = true <-> In x l.
Proof.
  unfold memZ. rewrite existsb_exists. split.
  - intros [y [Hy E]]. apply Z.eqb_eq in E. now subst.
  - intros H. exists x. split; [exact H|apply Z.eqb_refl].
Qed.

Lemma scan_down_spec t : forall rp p,
  (scan_down t rp p = (-1, -1) /\ forall r, In r rp -> t mod r <> 0) \/
  (exists j r, nth_error rp j = Some r /\ t mod r = 0 /\ scan_down t rp p = (p - Z.of_nat j, t / r) /\
               forall j' r', (j' < j)%nat -> nth_error rp j' = Some r' -> t mod r' <> 0).
Proof.
  induction rp as [|r rp IH]; intros p; cbn [scan_down].
  - left. split; [reflexivity|intros r []].
  - destruct (t mod r =? 0) eqn:E.
    + right. exists 0%nat, r. split; [reflexivity|]. split; [lia|]. split; [f_equal; lia|]. intros j' r' Hj. lia.
    + destruct (IH (p - 1)) as [[H1 H2]|(j & r0 & Hj & Hm & Hs & Hbefore)].
      * left. split; [exact H1|]. intros r' [<-|Hr']; [lia|now apply H2].
      * right. exists (S j), r0. split; [exact Hj|]. split; [exact Hm|]. split; [rewrite Hs; f_equal; lia|].
        intros j' r' Hj' Hn. destruct j' as [|j']; cbn in Hn; [injection Hn as <-; lia|].
        apply (Hbefore j' r'); [lia|exact Hn].
Qed.

Lemma nth_error_rev_firstn (l : list Z) i j r : (i <= length l)%nat ->
  nth_error (rev (firstn i l)) j = Some r -> (j < i)%nat /\ nth_error l (i - 1 - j) = Some r.
Proof.
  intros Hi Hj.
  assert (Hlen : length (firstn i l) = i) by (rewrite firstn_length; lia).
  assert (Hjl : (j < i)%nat).
  { rewrite <- Hlen, <- rev_length. apply nth_error_Some. congruence. }
  split; [exact Hjl|].
  assert (H := nth_error_nth (rev (firstn i l)) j 0 Hj).
  rewrite rev_nth in H by (rewrite firstn_length; lia). rewrite firstn_length in H.
  replace (Nat.min i (length l) - S j)%nat with (i - 1 - j)%nat in H by lia.
  assert (Hf : nth_error (firstn i l) (i - 1 - j) = Some r).
  { rewrite <- H. apply nth_error_nth'. rewrite firstn_length. lia. }
  rewrite nth_error_firstn in Hf. destruct (i - 1 - j <? i)%nat; [exact Hf|discriminate].
Qed.

Lemma pred_mult_spec resn i : (i < length resn)%nat ->
  let t := nth i resn 0 in
  (pred_mult resn i = (-1, -1) /\ forall q r, (q < i)%nat -> nth_error resn q = Some r -> t mod r <> 0) \/
  (exists q r, (q < i)%nat /\ nth_error resn q = Some r /\ t mod r = 0 /\ pred_mult resn i = (Z.of_nat q, t / r)).
Proof.
  intros Hi t. unfold pred_mult. fold t.
  destruct (scan_down_spec t (rev (firstn i resn)) (Z.of_nat i - 1)) as [[H1 H2]|(j & r & Hj & Hm & Hs & _)].
  - left. split; [exact H1|]. intros q r Hq Hn. apply H2. apply in_rev. rewrite rev_involutive.
    apply (nth_error_In _ q). rewrite nth_error_firstn. apply Nat.ltb_lt in Hq. now rewrite Hq.
  - right. apply nth_error_rev_firstn in Hj as [Hji Hn]; [|lia].
    exists (i - 1 - j)%nat, r. split; [lia|]. split; [exact Hn|]. split; [exact Hm|].
    rewrite Hs. f_equal. lia.
Qed.

Definition Positive (l : list Z) : Prop := Forall (fun x => 1 <= x) l.

Lemma sorted_lt_nth l : StronglySorted Z.lt l ->
  forall i j x y, (i < j)%nat -> nth_error l i = Some x -> nth_error l j = Some y -> x < y.
Proof.
  induction 1 as [|a l HS IH Hall]; intros i j x y Hij Hx Hy; [now rewrite nth_error_nil' in Hx|].
  destruct j as [|j]; [lia|]. cbn in Hy. destruct i as [|i]; cbn in Hx.
  - injection Hx as <-. rewrite Forall_forall in Hall. apply Hall. eapply nth_error_In; eauto.
  - apply (IH i j); auto. lia.
Qed.

Lemma pm_nth resn i : (i < length resn)%nat ->
  nth_error (map (pred_mult resn) (seq 0 (length resn))) i = Some (pred_mult resn i).
Proof.
  intros Hi. rewrite nth_error_map, (nth_error_nth' _ 0%nat) by (rewrite seq_length; lia).
  rewrite seq_nth by lia. reflexivity.
Qed.

Lemma refused_iff resn bs :
  existsb (fun rp => (snd rp =? -1) && negb (memZ (fst rp) bs))
          (combine resn (map fst (map (pred_mult resn) (seq 0 (length resn))))) = true <->
  exists i, (i < length resn)%nat /\ fst (pred_mult resn i) = -1 /\ ~ In (nth i resn 0) bs.
Proof.
  set (pm := map (pred_mult resn) (seq 0 (length resn))).
  assert (Hc : forall i, (i < length resn)%nat ->
            nth_error (combine resn (map fst pm)) i = Some (nth i resn 0, fst (pred_mult resn i))).
  { intros i Hi. apply nth_error_combine; [now apply nth_error_nth'|]. unfold pm. now rewrite nth_error_map, pm_nth. }
  rewrite existsb_exists. split.
  - intros [[r p] [Hin Ht]]. apply In_nth_error in Hin as [i Hi]. cbn [fst snd] in Ht.
    assert (Hil : (i < length resn)%nat).
    { assert (H : (i < length (combine resn (map fst pm)))%nat) by (apply nth_error_Some; congruence).
      rewrite combine_length in H. lia. }
    rewrite (Hc i Hil) in Hi. injection Hi as <- <-. exists i. split; [exact Hil|]. split; [lia|].
    intros Hin'. apply memZ_in in Hin'. rewrite Hin' in Ht. cbn in Ht. lia.
  - intros (i & Hil & Hp & Hnb). exists (nth i resn 0, fst (pred_mult resn i)).
    split; [exact (nth_error_In _ i (Hc i Hil))|]. cbn [fst snd]. rewrite Hp.
    destruct (memZ (nth i resn 0) bs) eqn:Em; [apply memZ_in in Em; contradiction|reflexivity].
Qed.

Section MultSeq.
  Variable res bs : list Z.
  Hypothesis Hres : Positive res.
  Hypothesis Hbs : Positive bs.
  Let resn := np_unique (bs ++ res).

  Lemma resn_in x : In x resn <-> In x bs \/ In x res.
  Proof. unfold resn. rewrite np_unique_in, in_app_iff. reflexivity. Qed.

  Lemma resn_pos x : In x resn -> 1 <= x.
  Proof.
    intros H. apply resn_in in H. unfold Positive in *. rewrite Forall_forall in Hres, Hbs.
    destruct H; auto.
  Qed.

  Lemma resn_sorted : StronglySorted Z.lt resn.
  Proof. apply np_unique_sorted. Qed.

  (** what get_multiplier_sequence returns, when it returns *)
  Theorem multseq_sound resn' pred mult :
    get_multiplier_sequence res (Some bs) = Some (resn', pred, mult) ->
    resn' = resn /\ length pred = length resn /\ length mult = length resn /\
    forall i, (i < length resn)%nat ->
      (nth i pred 0 = -1 /\ nth i mult 0 = -1 /\ In (nth i resn 0) bs) \/
      (0 <= nth i pred 0 < Z.of_nat i /\ 2 <= nth i mult 0 /\
       nth (Z.to_nat (nth i pred 0)) resn 0 * nth i mult 0 = nth i resn 0).
  Proof.
    unfold get_multiplier_sequence. fold resn.
    destruct (existsb _ _) eqn:E; [discriminate|]. intros H. injection H as <- <- <-.
    split; [reflexivity|]. split; [now rewrite !map_length, seq_length|].
    split; [now rewrite !map_length, seq_length|].
    intros i Hi.
    rewrite (nth_error_nth (map fst _) i 0 (x := fst (pred_mult resn i))) by now rewrite nth_error_map, pm_nth.
    rewrite (nth_error_nth (map snd _) i 0 (x := snd (pred_mult resn i))) by now rewrite nth_error_map, pm_nth.
    destruct (pred_mult_spec resn i Hi) as [[H1 _]|(q & r & Hq & Hn & Hmod & H1)]; rewrite H1; cbn [fst snd].
    - left. split; [reflexivity|]. split; [reflexivity|].
      (* not refused: the entry is a base *)
      destruct (memZ (nth i resn 0) bs) eqn:Em; [now apply memZ_in|exfalso].
      apply Bool.not_true_iff_false in E. apply E, refused_iff. exists i. rewrite H1.
      split; [exact Hi|]. split; [reflexivity|]. intros X. apply memZ_in in X. congruence.
    - right. rewrite Nat2Z.id, (nth_error_nth _ _ 0 Hn).
      assert (Hr : 1 <= r) by (apply resn_pos; eapply nth_error_In; eauto).
      assert (Hlt : r < nth i resn 0) by (apply (sorted_lt_nth resn resn_sorted q i); auto; now apply nth_error_nth').
      assert (Hex : nth i resn 0 = r * (nth i resn 0 / r)) by (apply Z_div_exact_full_2; lia).
      split; [lia|]. split; [nia|lia].
  Qed.

  (** it refuses exactly when some requested resolution is not a multiple of any base *)
  Theorem multseq_complete :
    get_multiplier_sequence res (Some bs) = None <->
    exists r, In r res /\ forall b, In b bs -> r mod b <> 0.
  Proof.
    enough (Hreq : (exists i, (i < length resn)%nat /\ fst (pred_mult resn i) = -1 /\ ~ In (nth i resn 0) bs) <->
                   exists r, In r res /\ forall b, In b bs -> r mod b <> 0).
    { rewrite <- Hreq, <- refused_iff. unfold get_multiplier_sequence. fold resn.
      destruct (existsb _ _); split; congruence. }
    assert (Hbpos : forall b, In b bs -> 1 <= b) by (apply Forall_forall, Hbs).
    split.
    - intros (i & Hil & Hp & Hnb).
      assert (Hri : nth_error resn i = Some (nth i resn 0)) by now apply nth_error_nth'.
      assert (Hin : In (nth i resn 0) resn) by (eapply nth_error_In; eauto).
      exists (nth i resn 0). split.
      + apply resn_in in Hin as [Hin|Hin]; [contradiction|exact Hin].
      + (* a base dividing entry i stands before it in resn, so the scan would have found it *)
        intros b Hb Hmod. specialize (Hbpos b Hb).
        assert (Hbr : In b resn) by (apply resn_in; now left).
        apply In_nth_error in Hbr as [q Hq].
        assert (Hble : b <= nth i resn 0).
        { apply Z.mod_divide in Hmod; [|lia]. apply Z.divide_pos_le; [|exact Hmod]. apply resn_pos in Hin. lia. }
        assert (Hne : b <> nth i resn 0) by (intros ->; contradiction).
        assert (Hqi : (q < i)%nat).
        { destruct (Nat.lt_trichotomy q i) as [Hlt|[->|Hgt]]; [exact Hlt| |].
          - rewrite Hri in Hq. injection Hq as Hq. lia.
          - pose proof (sorted_lt_nth resn resn_sorted i q _ _ Hgt Hri Hq). lia. }
        destruct (pred_mult_spec resn i Hil) as [[_ H2]|(q' & r' & Hq' & Hn' & Hm' & H1)].
        * apply (H2 q b Hqi Hq Hmod).
        * rewrite H1 in Hp. cbn in Hp. lia.
    - intros (r & Hr & Hnone).
      (* follow the predecessor chain down from r: it cannot end in a base *)
      assert (Hchain : forall n i, (i < n)%nat -> (i < length resn)%nat ->
                (forall b, In b bs -> nth i resn 0 mod b <> 0) ->
                exists i', (i' < length resn)%nat /\ fst (pred_mult resn i') = -1 /\ ~ In (nth i' resn 0) bs).
      { induction n as [|n IH]; intros i Hin Hil Hnb; [lia|].
        assert (Hnotbase : ~ In (nth i resn 0) bs).
        { intros Hb. apply (Hnb _ Hb). apply Z.mod_same. assert (1 <= nth i resn 0) by (apply resn_pos, nth_In; lia). lia. }
        destruct (pred_mult_spec resn i Hil) as [[H1 _]|(q & r0 & Hq & Hn & Hm & H1)].
        - exists i. rewrite H1. auto.
        - apply (IH q); [lia|apply nth_error_Some; congruence|].
          intros b Hb Hmod. apply (Hnb b Hb). specialize (Hbpos b Hb).
          assert (1 <= r0) by (apply resn_pos; eapply nth_error_In; eauto).
          rewrite (nth_error_nth _ _ 0 Hn) in Hmod.
          apply Z.mod_divide; [lia|]. apply Z.mod_divide in Hm, Hmod; try lia. eapply Z.divide_trans; eauto. }
      assert (Hrin : In r resn) by (apply resn_in; now right).
      apply (In_nth _ _ 0) in Hrin as (i & Hil & Hi).
      apply (Hchain (S i) i); [lia|exact Hil|now rewrite Hi].
  Qed.
End MultSeq.

Section CoolerAgg.
  Context {V : Type}.
  Variable agg : list V -> V.

  Definition ValidCoolerG (c : gcooler V) : Prop :=
    exists blocks, fst (fst c) = concat blocks /\ ValidBlocks blocks /\ snd (fst c) = map chrom_end blocks /\
                   RowSorted (shadow (snd c)) /\ InRange (zlen (concat blocks)) (shadow (snd c)).

  Lemma coarsen_cg_valid c k cs bs : 1 <= k -> 1 <= cs -> 1 <= bs -> ValidCoolerG c -> ValidCoolerG (coarsen_cg agg c k cs bs).
  Proof.
    intros Hk Hcs Hbs (blocks & Eb & HV & Es & HS & HR).
    destruct (coarsen_cooler_g_valid agg blocks (snd c) k cs bs) as (E & V1 & Ends & _ & S1 & R1); auto.
    exists (map (coarsen_block k) blocks). unfold coarsen_cg. rewrite Eb, Es, E. cbn [fst snd]. auto.
  Qed.

  Lemma coarsen_cg_chunk_independent c k cs1 bs1 cs2 bs2 :
    1 <= k -> 1 <= cs1 -> 1 <= bs1 -> 1 <= cs2 -> 1 <= bs2 -> ValidCoolerG c ->
    coarsen_cg agg c k cs1 bs1 = coarsen_cg agg c k cs2 bs2.
  Proof.
    intros Hk Hc1 Hb1 Hc2 Hb2 (blocks & Eb & HV & Es & HS & HR).
    unfold coarsen_cg, coarsen_cooler_g. cbn [fst snd]. rewrite Eb, Es.
    rewrite (coarsen_exact_chunk_independent agg blocks (snd c) k cs1 bs1 cs2 bs2) by (auto using inrange_rows). reflexivity.
  Qed.

  Hypothesis Hperm : AggPerm agg.
  Hypothesis Hdecomp : AggDecomp agg.

  Lemma coarsen_cg_compose c k1 k2 cs1 bs1 cs2 bs2 cs bs :
    1 <= k1 -> 1 <= k2 -> 1 <= cs1 -> 1 <= bs1 -> 1 <= cs2 -> 1 <= bs2 -> 1 <= cs -> 1 <= bs -> ValidCoolerG c ->
    coarsen_cg agg (coarsen_cg agg c k1 cs1 bs1) k2 cs2 bs2 = coarsen_cg agg c (k1 * k2) cs bs.
  Proof.
    intros H1 H2 Hc1 Hb1 Hc2 Hb2 Hc Hb (blocks & Eb & HV & Es & HS & HR).
    pose proof (coarsen_compose_g agg Hperm Hdecomp blocks (snd c) k1 k2 cs1 bs1 cs2 bs2 cs bs H1 H2 Hc1 Hb1 Hc2 Hb2 Hc Hb HV HS HR) as H.
    cbv zeta in H. unfold coarsen_cg. cbn [fst snd]. rewrite Eb, Es. rewrite H. reflexivity.
  Qed.
End CoolerAgg.

(** a cooler with the summed count column is the instance V = Z, agg = sumZ *)
Definition ValidCooler (c : cooler) : Prop :=
  exists blocks, c_bins c = concat blocks /\ ValidBlocks blocks /\ c_sizes c = map chrom_end blocks /\
                 RowSorted (c_px c) /\ InRange (zlen (concat blocks)) (c_px c).

Lemma valid_cooler_sum c : ValidCooler c <-> ValidCoolerG c.
Proof.
  split; intros (blocks & Eb & HV & Es & HS & HR); exists blocks;
    (split; [exact Eb|split; [exact HV|split; [exact Es|split]]]);
    first [now apply rowsorted_shadow|now apply inrange_shadow].
Qed.

Lemma coarsen_c_sum c k cs bs : coarsen_c c k cs bs = coarsen_cg sumZ c k cs bs.
Proof. unfold coarsen_c, coarsen_cg. now rewrite coarsen_cooler_sum. Qed.

Lemma coarsen_c_valid c k cs bs : 1 <= k -> 1 <= cs -> 1 <= bs -> ValidCooler c -> ValidCooler (coarsen_c c k cs bs).
Proof. rewrite !valid_cooler_sum, coarsen_c_sum. apply coarsen_cg_valid. Qed.

Lemma coarsen_c_compose c k1 k2 cs1 bs1 cs2 bs2 cs bs :
  1 <= k1 -> 1 <= k2 -> 1 <= cs1 -> 1 <= bs1 -> 1 <= cs2 -> 1 <= bs2 -> 1 <= cs -> 1 <= bs -> ValidCooler c ->
  coarsen_c (coarsen_c c k1 cs1 bs1) k2 cs2 bs2 = coarsen_c c (k1 * k2) cs bs.
Proof. rewrite valid_cooler_sum, !coarsen_c_sum. apply coarsen_cg_compose; [exact sumZ_perm|apply sumZ_decomp]. Qed.

Lemma coarsen_c_chunk_independent c k cs1 bs1 cs2 bs2 :
  1 <= k -> 1 <= cs1 -> 1 <= bs1 -> 1 <= cs2 -> 1 <= bs2 -> ValidCooler c ->
  coarsen_c c k cs1 bs1 = coarsen_c c k cs2 bs2.
Proof. rewrite valid_cooler_sum, !coarsen_c_sum. apply coarsen_cg_chunk_independent. Qed.

Lemma lookup_in {A} r (lv : list (Z * A)) c : lookup r lv = Some c -> In (r, c) lv.
Proof.
  induction lv as [|[r' c'] lv IH]; cbn [lookup]; [discriminate|].
  destruct (r =? r') eqn:E; intros H.
  - injection H as <-. apply Z.eqb_eq in E. subst. now left.
  - right. now apply IH.
Qed.

Lemma lookup_key_in {A} r (lv : list (Z * A)) : In r (map fst lv) -> exists c, lookup r lv = Some c.
Proof.
  induction lv as [|[r' c'] lv IH]; cbn [map fst lookup In]; [intros []|].
  destruct (r =? r') eqn:E; [eauto|]. intros [H|H]; [lia|now apply IH].
Qed.

Lemma lookup_cons_ne {A} r r' (c' : A) lv : r <> r' -> lookup r ((r', c') :: lv) = lookup r lv.
Proof. intros H. cbn [lookup]. destruct (r =? r') eqn:E; [lia|reflexivity]. Qed.

Lemma lookup_copied {A} (f : Z -> A) l r : In r l -> lookup r (map (fun b => (b, f b)) l) = Some (f r).
Proof.
  induction l as [|x l IH]; [intros []|]. cbn [map lookup].
  destruct (r =? x) eqn:E; [apply Z.eqb_eq in E; now subst|]. intros [H|H]; [lia|now apply IH].
Qed.

Section ZoomAbstract.
Context {C : Type}.
Variable coarsenC : C -> Z -> Z -> Z -> C.
Variable emptyC : C.
Variable ValidC : C -> Prop.
Hypothesis HCvalid : forall c k cs bs, 1 <= k -> 1 <= cs -> 1 <= bs -> ValidC c -> ValidC (coarsenC c k cs bs).
Hypothesis HCcompose : forall c k1 k2 cs1 bs1 cs2 bs2 cs bs,
  1 <= k1 -> 1 <= k2 -> 1 <= cs1 -> 1 <= bs1 -> 1 <= cs2 -> 1 <= bs2 -> 1 <= cs -> 1 <= bs -> ValidC c ->
  coarsenC (coarsenC c k1 cs1 bs1) k2 cs2 bs2 = coarsenC c (k1 * k2) cs bs.
Hypothesis HCindep : forall c k cs1 bs1 cs2 bs2,
  1 <= k -> 1 <= cs1 -> 1 <= bs1 -> 1 <= cs2 -> 1 <= bs2 -> ValidC c -> coarsenC c k cs1 bs1 = coarsenC c k cs2 bs2.

(** [c] is what the property demands at resolution [r]: the copied base, or the DIRECT coarsening of a
    base by the ratio of resolutions (for any chunk and batch size) *)
Definition DirectW (bases : list (Z * C)) (r : Z) (c : C) : Prop :=
  (In r (map fst bases) /\ lookup r (base_dict bases) = Some c) \/
  (~ In r (map fst bases) /\ exists b cb k, In b (map fst bases) /\ lookup b (base_dict bases) = Some cb /\ 2 <= k /\ r = b * k /\
      forall cs bs, 1 <= cs -> 1 <= bs -> c = coarsenC cb k cs bs).

Section Zoomify.
  Variable bases : list (Z * C).
  Variable res : list Z.
  Variables cs bs : Z.
  Hypothesis Hcs : 1 <= cs.
  Hypothesis Hbs : 1 <= bs.
  Hypothesis Hres : Positive res.
  Hypothesis Hbpos : Positive (map fst bases).
  Hypothesis Hvalid : forall b c, In (b, c) bases -> ValidC c.
  Let bres := map fst bases.
  Let BD := base_dict bases.
  Let base_of := fun b => match lookup b BD with Some c => c | None => emptyC end.

  Lemma base_lookup b : In b bres -> exists c, lookup b BD = Some c /\ ValidC c.
  Proof.
    intros Hb. assert (Hk : In b (map fst BD)).
    { unfold BD, base_dict. rewrite map_rev. apply in_rev. rewrite rev_involutive. exact Hb. }
    destruct (lookup_key_in b BD Hk) as [c Hc]. exists c. split; [exact Hc|].
    apply lookup_in in Hc. unfold BD, base_dict in Hc. apply (proj2 (in_rev bases (b, c))) in Hc. eauto.
  Qed.

  (** one more coarsening of a direct level is the direct coarsening by the product of the factors *)
  Lemma direct_step r cp m : DirectW bases r cp -> ValidC cp -> 2 <= m -> ~ In (r * m) bres ->
    DirectW bases (r * m) (coarsenC cp m cs bs).
  Proof.
    intros Dp Vp Hm Hnb. right. split; [exact Hnb|].
    destruct Dp as [(Hb & Hl)|(_ & b & cb & k & Hb & Hl & Hk & -> & Hc)].
    - exists r, cp, m. split; [exact Hb|]. split; [exact Hl|]. split; [exact Hm|]. split; [reflexivity|].
      intros cs' bs' Hcs' Hbs'. apply HCindep; auto; lia.
    - destruct (base_lookup _ Hb) as (cb' & Hl' & Vcb). unfold BD in Hl'. rewrite Hl in Hl'. injection Hl' as <-.
      exists b, cb, (k * m). split; [exact Hb|]. split; [exact Hl|]. split; [nia|]. split; [lia|].
      intros cs' bs' Hcs' Hbs'. rewrite (Hc cs bs Hcs Hbs). apply HCcompose; auto; lia.
  Qed.

  Variables resn pred mult : list Z.
  Hypothesis Hseq : get_multiplier_sequence res (Some bres) = Some (resn, pred, mult).

  Let sound := multseq_sound res bres Hres Hbpos resn pred mult Hseq.

  Lemma resn_eq : resn = np_unique (bres ++ res).
  Proof. now destruct sound. Qed.

  Lemma sound_resn : length pred = length resn /\ length mult = length resn /\
    forall i, (i < length resn)%nat ->
      (nth i pred 0 = -1 /\ nth i mult 0 = -1 /\ In (nth i resn 0) bres) \/
      (0 <= nth i pred 0 < Z.of_nat i /\ 2 <= nth i mult 0 /\
       nth (Z.to_nat (nth i pred 0)) resn 0 * nth i mult 0 = nth i resn 0).
  Proof. destruct sound as (E & A & B & D). rewrite <- E in *. auto. Qed.

  Lemma resn_nodup_nth i j : (i < length resn)%nat -> (j < length resn)%nat -> i <> j -> nth i resn 0 <> nth j resn 0.
  Proof.
    intros Hi Hj Hij E. apply Hij. revert E. apply (proj1 (NoDup_nth resn 0)); auto.
    rewrite resn_eq. apply (ssorted_nodup Z.lt Z.lt_irrefl), np_unique_sorted.
  Qed.

  (** invariant of the Aggregate loop after the first n entries of resn *)
  Definition ZInv (n : nat) (lv : list (Z * C)) : Prop :=
    (forall b, In b bres -> lookup b lv = Some (base_of b)) /\
    (forall i, (i < n)%nat -> (i < length resn)%nat -> exists c, lookup (nth i resn 0) lv = Some c /\ DirectW bases (nth i resn 0) c /\ ValidC c) /\
    NoDup (map fst lv) /\
    (forall r, In r (map fst lv) -> In r bres \/ exists j, (j < n)%nat /\ (j < length resn)%nat /\ r = nth j resn 0).

  (** entry n is a base: it is in the file already, as copied *)
  Lemma zinv_base n lv : In (nth n resn 0) bres -> ZInv n lv -> ZInv (S n) lv.
  Proof.
    intros Hb (IB & ID & IN & IK). split; [exact IB|]. split; [|split; [exact IN|]].
    - intros i Hi Hil. destruct (Nat.eq_dec i n) as [->|Hne]; [|apply ID; lia].
      destruct (base_lookup _ Hb) as (c & Hc & Vc). exists c.
      split; [rewrite (IB _ Hb); unfold base_of; now rewrite Hc|]. split; [left; split; assumption|exact Vc].
    - intros r Hr. destruct (IK r Hr) as [H|(j & Hj & Hjl & ->)]; [now left|right; exists j; split; [lia|auto]].
  Qed.

  Lemma zoom_step_inv n lv : (n < length resn)%nat -> ZInv n lv ->
    exists lv', zoom_step_w coarsenC resn pred mult bres cs bs (Some lv) n = Some lv' /\ ZInv (S n) lv'.
  Proof.
    intros Hn HI. pose proof HI as (IB & ID & IN & IK).
    destruct sound_resn as (Lp & Lm & Hs). specialize (Hs n Hn).
    unfold zoom_step_w. rewrite (nth_indep pred (-1) 0) by lia.
    destruct (memZ (nth n resn 0) bres) eqn:Em.
    - (* a base is copied, not re-derived, also when it is a multiple of another base (D17) *)
      rewrite Bool.orb_true_r. apply memZ_in in Em. exists lv. split; [reflexivity|now apply zinv_base].
    - assert (Hnb : ~ In (nth n resn 0) bres) by (intros X; apply memZ_in in X; congruence).
      destruct Hs as [(_ & _ & Hb)|(Hp & Hm & Hprod)]; [contradiction|].
      replace (nth n pred 0 =? -1) with false by lia. cbn [orb].
      set (q := Z.to_nat (nth n pred 0)). assert (Hq : (q < n)%nat) by (unfold q; lia).
      destruct (ID q Hq ltac:(lia)) as (cp & Hlp & Dp & Vp). rewrite Hlp.
      eexists. split; [reflexivity|]. fold q in Hprod. rewrite Hprod.
      set (m := nth n mult 0) in *.
      assert (Hnew : forall r, In r (map fst lv) -> r <> nth n resn 0).
      { intros r Hr E. destruct (IK r Hr) as [H|(j & Hj & Hjl & Ej)]; [subst; contradiction|].
        apply (resn_nodup_nth n j Hn Hjl ltac:(lia)). congruence. }
      split; [|split; [|split]].
      + intros b Hb. rewrite lookup_cons_ne; [now apply IB|]. intros ->. contradiction.
      + intros i Hi Hil. destruct (Nat.eq_dec i n) as [->|Hne].
        * exists (coarsenC cp m cs bs). split; [cbn [lookup]; now rewrite Z.eqb_refl|].
          split; [|apply HCvalid; auto; lia]. rewrite <- Hprod in Hnb |- *. now apply direct_step.
        * destruct (ID i ltac:(lia) Hil) as (c & Hl & D & V). exists c. split; [|auto].
          rewrite lookup_cons_ne; [exact Hl|]. apply resn_nodup_nth; auto.
      + cbn [map fst]. constructor; [|exact IN]. intros X. now apply (Hnew _ X).
      + cbn [map fst In]. intros r [<-|Hr]; [right; exists n; auto|].
        destruct (IK r Hr) as [H|(j & Hj & Hjl & ->)]; [now left|right; exists j; split; [lia|auto]].
  Qed.

  Lemma zoom_fold_inv : forall m n lv, (n + m = length resn)%nat -> ZInv n lv ->
    exists lv', fold_left (zoom_step_w coarsenC resn pred mult bres cs bs) (seq n m) (Some lv) = Some lv' /\ ZInv (length resn) lv'.
  Proof.
    induction m as [|m IH]; intros n lv Hnm HI.
    - exists lv. split; [reflexivity|]. replace (length resn) with n by lia. exact HI.
    - cbn [seq fold_left]. destruct (zoom_step_inv n lv ltac:(lia) HI) as (lv1 & E & HI1).
      rewrite E. apply IH; [lia|exact HI1].
  Qed.
End Zoomify.

(** zoomify_cooler: every level of the file is the copied base or the DIRECT coarsening of a base by the
    ratio of resolutions, whatever chain of intermediate levels produced it; each of the requested and base
    resolutions is present exactly once; it refuses exactly the non-derivable requests *)
Theorem zoom_with_eq_direct bases res cs bs :
  1 <= cs -> 1 <= bs -> Positive res -> Positive (map fst bases) ->
  (forall b c, In (b, c) bases -> ValidC c) ->
  (forall lv, zoomify_with coarsenC emptyC bases res cs bs = Some lv ->
     Permutation (map fst lv) (np_unique (map fst bases ++ res)) /\ NoDup (map fst lv) /\
     forall r c, lookup r lv = Some c -> DirectW bases r c /\ ValidC c) /\
  (zoomify_with coarsenC emptyC bases res cs bs = None <->
     exists r, In r res /\ forall b, In b (map fst bases) -> r mod b <> 0).
Proof.
  intros Hcs Hbs Hres Hbpos Hvalid.
  pose proof (multseq_complete res (map fst bases) Hres Hbpos) as Hcomp.
  unfold zoomify_with.
  destruct (get_multiplier_sequence res (Some (map fst bases))) as [[[resn pred] mult]|] eqn:Hseq.
  2:{ split; [intros lv H; discriminate|]. split; [intros _; now apply Hcomp|reflexivity]. }
  set (copied := map (fun b => (b, match lookup b (base_dict bases) with Some c => c | None => emptyC end))
                     (np_unique (map fst bases))).
  assert (Hkeys : map fst copied = np_unique (map fst bases)).
  { unfold copied. rewrite map_map. cbn [fst]. apply map_id. }
  (* before the loop the file holds the copied bases and nothing else *)
  assert (Hinit : ZInv bases resn 0 copied).
  { split; [|split; [|split]].
    - intros b Hb. unfold copied. apply (lookup_copied (fun b => match lookup b (base_dict bases) with Some c => c | None => emptyC end)).
      apply (proj2 (np_unique_in _ _)). exact Hb.
    - intros i Hi. lia.
    - rewrite Hkeys. apply (ssorted_nodup Z.lt Z.lt_irrefl), np_unique_sorted.
    - intros r Hr. left. rewrite Hkeys in Hr. rewrite np_unique_in in Hr. exact Hr. }
  destruct (zoom_fold_inv bases res cs bs Hcs Hbs Hres Hbpos Hvalid resn pred mult Hseq (length resn) 0 copied eq_refl Hinit)
    as (lv' & Efold & (IB & ID & IN & IK)).
  rewrite Efold.
  pose proof (resn_eq bases res Hres Hbpos resn pred mult Hseq) as Eresn.
  assert (Hset : forall x, In x (map fst lv') <-> In x resn).
  { intros x. split.
    - intros Hx. destruct (IK x Hx) as [H|(j & _ & Hj & ->)].
      + rewrite Eresn. apply (proj2 (np_unique_in _ _)), in_or_app. now left.
      + apply nth_In. exact Hj.
    - intros Hx. apply (In_nth _ _ 0) in Hx as (i & Hi & <-).
      destruct (ID i Hi Hi) as (c & Hl & _). apply lookup_in in Hl. now apply (in_map fst) in Hl. }
  split.
  - intros lv E. injection E as <-. split; [|split; [exact IN|]].
    + rewrite <- Eresn. apply NoDup_Permutation; [exact IN| |exact Hset].
      rewrite Eresn. apply (ssorted_nodup Z.lt Z.lt_irrefl), np_unique_sorted.
    + intros r c Hl. assert (Hr : In r resn) by (apply Hset; apply lookup_in in Hl; now apply (in_map fst) in Hl).
      apply (In_nth _ _ 0) in Hr as (i & Hi & <-).
      destruct (ID i Hi Hi) as (c' & Hl' & D & V). rewrite Hl in Hl'. injection Hl' as <-. auto.
  - split; [discriminate|]. intros Hex. apply Hcomp in Hex. congruence.
Qed.

End ZoomAbstract.

(** default aggregation (sum of the count column) *)
Definition Direct : list (Z * cooler) -> Z -> cooler -> Prop := DirectW coarsen_c.

Theorem zoom_level_eq_direct bases res cs bs :
  1 <= cs -> 1 <= bs -> Positive res -> Positive (map fst bases) ->
  (forall b c, In (b, c) bases -> ValidCooler c) ->
  (forall lv, zoomify_cooler bases res cs bs = Some lv ->
     Permutation (map fst lv) (np_unique (map fst bases ++ res)) /\ NoDup (map fst lv) /\
     forall r c, lookup r lv = Some c -> Direct bases r c /\ ValidCooler c) /\
  (zoomify_cooler bases res cs bs = None <->
     exists r, In r res /\ forall b, In b (map fst bases) -> r mod b <> 0).
Proof.
  intros. apply (zoom_with_eq_direct coarsen_c ([], [], []) ValidCooler coarsen_c_valid coarsen_c_compose
                   coarsen_c_chunk_independent); assumption.
Qed.

(** zoomify with a requested aggregation of any value type that composes over a partition: every derived
    level is the DIRECT coarsening (with that aggregation) of a base by the ratio of resolutions, whatever
    chain produced it *)
Theorem zoom_level_eq_direct_g {V} (agg : list V -> V) (Hperm : AggPerm agg) (Hdecomp : AggDecomp agg) bases res cs bs :
  1 <= cs -> 1 <= bs -> Positive res -> Positive (map fst bases) ->
  (forall b c, In (b, c) bases -> ValidCoolerG c) ->
  (forall lv, zoomify_cooler_g agg bases res cs bs = Some lv ->
     Permutation (map fst lv) (np_unique (map fst bases ++ res)) /\ NoDup (map fst lv) /\
     forall r c, lookup r lv = Some c -> DirectW (coarsen_cg agg) bases r c /\ ValidCoolerG c) /\
  (zoomify_cooler_g agg bases res cs bs = None <->
     exists r, In r res /\ forall b, In b (map fst bases) -> r mod b <> 0).
Proof.
  intros. apply (zoom_with_eq_direct (coarsen_cg agg) ([], [], []) ValidCoolerG (coarsen_cg_valid agg)
                   (coarsen_cg_compose agg Hperm Hdecomp) (coarsen_cg_chunk_independent agg)); assumption.
Qed.

Lemma pow_ge1 b i : 1 <= b -> 0 <= i -> 1 <= b ^ i.
Proof. intros. assert (0 < b ^ i) by (apply Z.pow_pos_nonneg; lia). lia. Qed.

(** the terms x * b^j: the first one, and those of x * b *)
Lemma pow_terms_split b x (P : Z -> Prop) :
  (exists j, 0 <= j /\ P (x * b ^ j)) <-> P x \/ exists j, 0 <= j /\ P (x * b * b ^ j).
Proof.
  split.
  - intros (j & Hj & H). destruct (Z.eq_dec j 0) as [->|Hne]; [left; now rewrite Z.mul_1_r in H|right].
    exists (j - 1). split; [lia|]. now rewrite <- Z.mul_assoc, <- Z.pow_succ_r, Z.sub_1_r, Z.succ_pred by lia.
  - intros [H|(j & Hj & H)]; [exists 0; now rewrite Z.mul_1_r|].
    exists (Z.succ j). split; [lia|]. now rewrite Z.pow_succ_r, Z.mul_assoc by lia.
Qed.

(** one term [a] of an ascending progression cut at [stop], before the later terms [L] (those of [Q]) *)
Lemma cut_spec stop a L (Q : Z -> Prop) :
  (forall y, In y L <-> Q y /\ y <= stop) -> (forall y, Q y -> a < y) -> StronglySorted Z.lt L ->
  (forall y, In y (if a <=? stop then a :: L else []) <-> (y = a \/ Q y) /\ y <= stop) /\
  StronglySorted Z.lt (if a <=? stop then a :: L else []).
Proof.
  intros HL HQ HS. destruct (a <=? stop) eqn:E.
  - split.
    + intros y. cbn [In]. rewrite HL. split; [intros [<-|[? ?]]|intros [[->|?] ?]]; auto; lia.
    + constructor; [exact HS|]. apply Forall_forall. intros y Hy. apply HQ, HL, Hy.
  - split; [|constructor]. intros y. split; [intros []|]. intros [[->|Hy] ?]; [|apply HQ in Hy]; lia.
Qed.

(** binary progression: exactly the x * 2^i that are <= stop, ascending *)
Lemma geom_upto_spec stop : forall fuel x, 1 <= x -> stop < x * 2 ^ Z.of_nat fuel ->
  (forall y, In y (geom_upto fuel x 2 stop) <-> (exists i, 0 <= i /\ y = x * 2 ^ i) /\ y <= stop) /\
  StronglySorted Z.lt (geom_upto fuel x 2 stop).
Proof.
  induction fuel as [|f IH]; intros x Hx Hf; cbn [geom_upto].
  - split; [|constructor]. intros y. split; [intros []|].
    intros [(i & Hi & ->) Hy]. pose proof (pow_ge1 2 i ltac:(lia) Hi). cbn in Hf. nia.
  - rewrite Nat2Z.inj_succ, Z.pow_succ_r, Z.mul_assoc in Hf by lia. destruct (IH (x * 2) ltac:(lia) Hf) as [A B].
    destruct (cut_spec stop x _ _ A) as [A' B']; [|exact B|split; [|exact B']].
    + intros y (i & Hi & ->). pose proof (pow_ge1 2 i ltac:(lia) Hi). nia.
    + intros y. rewrite A'. now rewrite (pow_terms_split 2 x (fun v => y = v)).
Qed.

Lemma log2_fuel stop : 0 <= stop -> stop < 2 ^ Z.of_nat (Z.to_nat (Z.log2_up (stop + 2))).
Proof.
  intros H. rewrite Z2Nat.id by apply Z.log2_up_nonneg.
  pose proof (Z.log2_up_spec (stop + 2) ltac:(lia)). lia.
Qed.

(** A strictly sorted list is determined by its members ([ssorted_ext]): this theorem and the next determine the
    progressions completely.  The fuel log2_up (stop + 2) + 1 suffices because 2^fuel > stop ([log2_fuel]) and every
    step at least doubles the value. *)
Theorem preferred_binary_spec start stop : 1 <= start ->
  (forall y, In y (preferred_sequence start stop true) <-> exists i, 0 <= i /\ y = start * 2 ^ i /\ y <= stop) /\
  StronglySorted Z.lt (preferred_sequence start stop true).
Proof.
  intros Hs. set (f := (Z.to_nat (Z.log2_up (stop + 2)) + 1)%nat).
  (* the list is geom_upto with one more unit of fuel, started at [start] *)
  assert (E : preferred_sequence start stop true = geom_upto (S f) start 2 stop).
  { unfold preferred_sequence. cbn [geom_upto]. destruct (Z.ltb_spec stop start); [now replace (start <=? stop) with false by lia|now replace (start <=? stop) with true by lia]. }
  rewrite E. destruct (geom_upto_spec stop (S f) start Hs) as [A B].
  - destruct (Z_lt_le_dec stop 0); [pose proof (pow_ge1 2 (Z.of_nat (S f)) ltac:(lia) ltac:(lia)); nia|].
    pose proof (log2_fuel stop ltac:(lia)) as H. unfold f.
    rewrite Nat2Z.inj_succ, Nat2Z.inj_add, Z.pow_succ_r, Z.pow_add_r by lia. nia.
  - split; [|exact B]. intros y. rewrite A. split; [intros [(i & Hi & E') Hy]|intros (i & Hi & E' & Hy)]; eauto.
Qed.

(** y is a term x * 10^j * {1, 2, 5} *)
Definition nice_term (x y : Z) : Prop := exists j, 0 <= j /\ exists m, (m = 1 \/ m = 2 \/ m = 5) /\ y = x * 10 ^ j * m.

Lemma nice_term_ge x y : 1 <= x -> nice_term x y -> x <= y.
Proof. intros Hx (j & Hj & m & Hm & ->). pose proof (pow_ge1 10 j ltac:(lia) Hj). nia. Qed.

(** nice progression from x on: exactly the x * 10^j * {1, 2, 5} that are <= stop, ascending *)
Lemma nice_upto_spec stop : forall fuel x, 1 <= x -> stop < x * 10 ^ Z.of_nat fuel ->
  (forall y, In y (if x <=? stop then x :: nice_upto fuel x stop else []) <-> nice_term x y /\ y <= stop) /\
  StronglySorted Z.lt (if x <=? stop then x :: nice_upto fuel x stop else []).
Proof.
  induction fuel as [|f IH]; intros x Hx Hf.
  - replace (x <=? stop) with false by (cbn in Hf; lia). split; [|constructor]. intros y. split; [intros []|].
    intros [Hy ?]. apply nice_term_ge in Hy; cbn in Hf; lia.
  - rewrite Nat2Z.inj_succ, Z.pow_succ_r, Z.mul_assoc in Hf by lia. destruct (IH (x * 10) ltac:(lia) Hf) as [A B].
    pose proof (fun y => nice_term_ge (x * 10) y ltac:(lia)) as Hge. cbn [nice_upto].
    destruct (cut_spec stop (x * 5) _ _ A) as [A5 B5]; [intros y Hy; apply Hge in Hy; lia|exact B|].
    destruct (cut_spec stop (x * 2) _ _ A5) as [A2 B2]; [intros y [->|Hy]; [|apply Hge in Hy]; lia|exact B5|].
    destruct (cut_spec stop x _ _ A2) as [A1 B1]; [intros y [->|[->|Hy]]; [| |apply Hge in Hy]; lia|exact B2|].
    split; [|exact B1]. intros y. rewrite A1. unfold nice_term at 2.
    rewrite (pow_terms_split 10 x (fun v => exists m, (m = 1 \/ m = 2 \/ m = 5) /\ y = v * m)). fold (nice_term (x * 10) y).
    assert (H125 : (exists m, (m = 1 \/ m = 2 \/ m = 5) /\ y = x * m) <-> y = x \/ y = x * 2 \/ y = x * 5).
    { split; [intros (m & [ -> | [ -> | -> ] ] & ->); lia|intros [ -> | [ -> | -> ] ]; [exists 1|exists 2|exists 5]; lia]. }
    rewrite H125. tauto.
Qed.

Theorem preferred_nice_spec start stop : 1 <= start ->
  (forall y, In y (preferred_sequence start stop false) <->
     exists j m, 0 <= j /\ (m = 1 \/ m = 2 \/ m = 5) /\ y = start * 10 ^ j * m /\ y <= stop) /\
  StronglySorted Z.lt (preferred_sequence start stop false).
Proof.
  intros Hs. set (f := (Z.to_nat (Z.log2_up (stop + 2)) + 1)%nat).
  assert (E : preferred_sequence start stop false = if start <=? stop then start :: nice_upto f start stop else []).
  { unfold preferred_sequence. destruct (Z.ltb_spec stop start); [now replace (start <=? stop) with false by lia|now replace (start <=? stop) with true by lia]. }
  rewrite E. destruct (nice_upto_spec stop f start Hs) as [A B].
  - destruct (Z_lt_le_dec stop 0); [pose proof (pow_ge1 10 (Z.of_nat f) ltac:(lia) ltac:(lia)); nia|].
    (* the same fuel as for the binary progression: 2^f <= 10^f *)
    pose proof (log2_fuel stop ltac:(lia)) as H. pose proof (Z.pow_le_mono_l 2 10 (Z.of_nat (Z.to_nat (Z.log2_up (stop + 2)))) ltac:(lia)).
    unfold f. rewrite Nat2Z.inj_add, Z.pow_add_r by lia. change (10 ^ Z.of_nat 1) with 10. nia.
  - split; [|exact B]. intros y. rewrite A.
    split; [intros [(j & Hj & m & Hm & E') Hy]; exists j, m|intros (j & m & Hj & Hm & E' & Hy); split; [exists j; split; [|exists m]|]]; auto.
Qed.

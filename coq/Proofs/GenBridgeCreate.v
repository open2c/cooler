(** Tie between the per-record predicates of _ingest._validate_pixels as TRANSLATED from the source on every run
    (Gen.vp_is_neg / vp_is_excess / vp_is_tril: a numpy comparison over the id columns becomes the comparison on one
    record) and the hand model of the validator (Model/Create.v: has_neg, has_excess, has_tril).  The order of the
    checks, the flag guarding each, the NaN test, the duplicate test and the optional sort are pinned
    (Gen.validate_pixels_source_pins), as are the validator chaining in create() and the fit check / store statements of
    write_pixels (Gen.create_write_source_pins). *)
From Cooler Require Import Model.Create Gen.Translated.
Open Scope Z_scope.

Section V.
  Context {V : Type}.
  Notation rowT := (key * V)%type.

  Lemma gen_has_neg (c : list rowT) :
    has_neg c = existsb (fun r => Gen.vp_is_neg (fst (fst r)) (snd (fst r))) c.
  Proof. reflexivity. Qed.

  Lemma gen_has_excess n (c : list rowT) :
    has_excess n c = existsb (fun r => Gen.vp_is_excess (fst (fst r)) (snd (fst r)) n) c.
  Proof.
    unfold has_excess, Gen.vp_is_excess. induction c as [|r t IH]; [reflexivity|]. cbn [existsb]. rewrite IH. f_equal.
    rewrite !Z.geb_leb. reflexivity.
  Qed.

  Lemma gen_has_tril (c : list rowT) :
    has_tril c = existsb (fun r => Gen.vp_is_tril (fst (fst r)) (snd (fst r))) c.
  Proof.
    unfold has_tril, Gen.vp_is_tril. induction c as [|r t IH]; [reflexivity|]. cbn [existsb]. rewrite IH. f_equal.
    rewrite Z.gtb_ltb. reflexivity.
  Qed.

  (** the model's validator, restated over the translated predicates *)
  Theorem gen_validate_pixels n bc tc dc es (c : list rowT) :
    validate_pixels n bc tc dc es c =
    if bc && existsb (fun r => Gen.vp_is_neg (fst (fst r)) (snd (fst r))) c then inl ErrNeg
    else if bc && existsb (fun r => Gen.vp_is_excess (fst (fst r)) (snd (fst r)) n) c then inl ErrExcess
    else if tc && existsb (fun r => Gen.vp_is_tril (fst (fst r)) (snd (fst r))) c then inl ErrTril
    else if dc && has_dup c then inl ErrDup
    else inr (if es then sort_rows c else c).
  Proof. unfold validate_pixels. now rewrite gen_has_neg, gen_has_excess, gen_has_tril. Qed.
End V.

Theorem gen_validate_pins : Gen.validate_pixels_source_pins = true /\ Gen.create_write_source_pins = true.
Proof. split; reflexivity. Qed.

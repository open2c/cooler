(** Integration proofs for C04 / C05:
    - matrix().fetch(r1, r2) and pixels().fetch(r) on a schema-valid stored collection (C02's ValidCSR),
      through C04's extent theorem and the end-to-end range-query theorem of C03;
    - the pixel table `cooler cload pairs` builds from valid records satisfies the hypotheses of C02's
      create_valid, so the written collection is ValidCSR and stores the multiplicities. *)
From Cooler Require Import Model.Fetch Model.Ingest Proofs.BinsProofs Proofs.PixelsProofs Proofs.ExtentProofs Proofs.IngestProofs.
From Cooler Require Model.Index Proofs.IndexProofs Proofs.QueryProofs Proofs.EndToEnd.
From Coq Require Import ZifyBool Sorted.

Lemma zlen_table_offset blocks : chrom_offset blocks (length blocks) = zlen (table blocks).
Proof. unfold chrom_offset, table. now rewrite firstn_all. Qed.

Lemma extent_within_table blocks i blk : nth_error blocks i = Some blk ->
  chrom_offset blocks (S i) <= zlen (table blocks).
Proof.
  intros Hi. rewrite <- zlen_table_offset. apply chrom_offset_le.
  assert (i < length blocks)%nat by (apply nth_error_Some; congruence). lia.
Qed.

(** a valid non-empty region resolves, and its extent is exactly the ascending list of the ids of the bins of
    that chromosome overlapping it *)
Theorem extent_is_overlap_ids blocks i blk s e :
  ValidBlocks blocks -> nth_error blocks i = Some blk -> 0 <= s < e -> e <= chrom_len blk ->
  exists lo hi, extent blocks i (Some s) (Some e) = Some (lo, hi) /\
    0 <= lo /\ lo < hi /\ hi <= zlen (table blocks) /\
    (forall k, lo <= k < hi <-> bin_overlaps blocks i s e k = true) /\
    zrange lo (Z.to_nat (hi - lo)) = overlap_ids blocks i s e.
Proof.
  intros HV Hi Hse HeL. unfold extent, chromsizes.
  rewrite (parse_region_complete _ i (Some s) (Some e) (chrom_len blk)); cbn [dflt]; try lia.
  2:{ now rewrite nth_error_map, Hi. }
  pose proof (extent_overlap blocks i blk s e HV Hi Hse HeL) as H.
  destruct (region_to_extent blocks i s e) as [lo hi]. destruct H as (Hiff & Hlo & Hhi).
  pose proof (chrom_offset_nonneg blocks i) as Hoff. pose proof (extent_within_table blocks i blk Hi) as Hin.
  assert (Hk : forall k, lo <= k < hi <-> bin_overlaps blocks i s e k = true).
  { intros k. unfold bin_overlaps. split.
    - intros Hr. destruct (proj1 (Hiff (Z.to_nat k)) ltac:(lia)) as (x & Hx & Hc & Hb & He).
      rewrite Hx. unfold overlaps_b. lia.
    - destruct (nth_error (table blocks) (Z.to_nat k)) as [x|] eqn:Hx; [|discriminate].
      intros Hp. assert (lo <= Z.of_nat (Z.to_nat k) < hi); [|lia].
      apply Hiff. exists x. unfold overlaps_b in Hp. split; [exact Hx|]. lia. }
  exists lo, hi. split; [reflexivity|]. split; [lia|]. split; [lia|]. split; [lia|]. split; [exact Hk|].
  unfold overlap_ids. rewrite <- (slice_zrange (length (table blocks)) lo hi) by (unfold zlen in Hin; lia).
  apply filter_slice; [lia|].
  intros k x Hkx.
  assert (Hkl : (k < length (zrange 0 (length (table blocks))))%nat) by (apply nth_error_Some; congruence).
  rewrite zrange_length in Hkl. rewrite (nth_error_zrange 0 _ k Hkl) in Hkx. injection Hkx as <-.
  rewrite <- Hk. lia.
Qed.

(** definitional: a two-region fetch IS the index-slice query on the two extents *)
Theorem fetch2_eq_slice blocks epx off cs fill form r1 r2 i0 i1 j0 j1 :
  extent blocks (fst (fst r1)) (snd (fst r1)) (snd r1) = Some (i0, i1) ->
  extent blocks (fst (fst r2)) (snd (fst r2)) (snd r2) = Some (j0, j1) ->
  matrix_fetch_records blocks epx off cs fill form r1 r2 = matrix_records epx off cs fill form (i0, i1, j0, j1).
Proof. intros H1 H2. unfold matrix_fetch_records, matrix_fetch_box. now rewrite H1, H2. Qed.

Section StoredFetch.
  Variable c : Index.cooler.
  Variable blocks : list (list bin).
  Hypothesis HC : IndexProofs.ValidCSR c.
  Hypothesis HV : ValidBlocks blocks.
  Hypothesis Hn : zlen (table blocks) = Index.nbins c.
  Let px := Index.pixels_of c.
  Let epx := epx_of px.
  Let off := Index.bin1_offset c.

  (** on a schema-valid symmetric-upper collection the dense two-region fetch is the symmetric matrix restricted
      to (bins overlapping region 1) x (bins overlapping region 2), rows and columns in ascending bin order *)
  Theorem matrix_fetch_symm cs i1 blk1 s1 e1 i2 blk2 s2 e2 :
    Index.symmetric_upper c = true -> 1 <= cs ->
    nth_error blocks i1 = Some blk1 -> 0 <= s1 < e1 -> e1 <= chrom_len blk1 ->
    nth_error blocks i2 = Some blk2 -> 0 <= s2 < e2 -> e2 <= chrom_len blk2 ->
    matrix_fetch_dense blocks epx off cs true (i1, Some s1, Some e1) (i2, Some s2, Some e2) =
    Some (map (fun i => map (fun j => symm px i j) (overlap_ids blocks i2 s2 e2)) (overlap_ids blocks i1 s1 e1)).
  Proof.
    intros Hsym Hcs Hi1 Hse1 HeL1 Hi2 Hse2 HeL2.
    destruct (extent_is_overlap_ids blocks i1 blk1 s1 e1 HV Hi1 Hse1 HeL1) as (a0 & a1 & Ea & Ha0 & Ha & Ha1 & _ & Hida).
    destruct (extent_is_overlap_ids blocks i2 blk2 s2 e2 HV Hi2 Hse2 HeL2) as (b0 & b1 & Eb & Hb0 & Hb & Hb1 & _ & Hidb).
    unfold matrix_fetch_dense, matrix_fetch_box. cbn [fst snd]. rewrite Ea, Eb. cbn [matrix_records].
    destruct (EndToEnd.stored_cooler_range_queries c cs a0 a1 b0 b1 HC Hcs ltac:(lia) ltac:(lia) ltac:(lia) ltac:(lia) ltac:(lia) ltac:(lia))
      as [_ Hf]. destruct (Hf Hsym) as (out & Ho & _ & Hd).
    fold px epx off in Ho, Hd. rewrite Ho, Hd, Hida, Hidb. reflexivity.
  Qed.

  (** the pixel-frame form (as_pixels / non-symmetric engine) returns exactly the stored records whose bin1 overlaps
      region 1 and whose bin2 overlaps region 2, in table order *)
  Theorem matrix_fetch_pixels cs i1 blk1 s1 e1 i2 blk2 s2 e2 :
    1 <= cs ->
    nth_error blocks i1 = Some blk1 -> 0 <= s1 < e1 -> e1 <= chrom_len blk1 ->
    nth_error blocks i2 = Some blk2 -> 0 <= s2 < e2 -> e2 <= chrom_len blk2 ->
    matrix_fetch_records blocks epx off cs true AsPixels (i1, Some s1, Some e1) (i2, Some s2, Some e2) =
    Some (filter (fun r => bin_overlaps blocks i1 s1 e1 (row (snd r)) && bin_overlaps blocks i2 s2 e2 (col (snd r))) epx).
  Proof.
    intros Hcs Hi1 Hse1 HeL1 Hi2 Hse2 HeL2.
    destruct (extent_is_overlap_ids blocks i1 blk1 s1 e1 HV Hi1 Hse1 HeL1) as (a0 & a1 & Ea & Ha0 & Ha & Ha1 & Hka & _).
    destruct (extent_is_overlap_ids blocks i2 blk2 s2 e2 HV Hi2 Hse2 HeL2) as (b0 & b1 & Eb & Hb0 & Hb & Hb1 & Hkb & _).
    unfold matrix_fetch_records, matrix_fetch_box. cbn [fst snd]. rewrite Ea, Eb. cbn [matrix_records].
    destruct (EndToEnd.stored_cooler_range_queries c cs a0 a1 b0 b1 HC Hcs ltac:(lia) ltac:(lia) ltac:(lia) ltac:(lia) ltac:(lia) ltac:(lia))
      as [Hd _]. fold px epx off in Hd. rewrite Hd. f_equal. apply filter_ext. intros r.
    unfold QueryProofs.in_window.
    specialize (Hka (row (snd r))). specialize (Hkb (col (snd r))).
    destruct (bin_overlaps blocks i1 s1 e1 (row (snd r))), (bin_overlaps blocks i2 s2 e2 (col (snd r))); lia.
  Qed.

End StoredFetch.

(** the stored index entry k is the number of records with bin1 < k *)
Lemma stored_offset (c : Index.cooler) k : IndexProofs.ValidCSR c -> 0 <= k <= Index.nbins c ->
  znth (Index.bin1_offset c) k 0 = zlen (filter (fun p => row p <? k) (Index.pixels_of c)).
Proof.
  intros HC Hk. pose proof (EndToEnd.bin1_is_rows c HC) as Hb. destruct HC as (_ & _ & _ & _ & _ & _ & Hoff & _).
  unfold znth. rewrite Hoff. rewrite IndexProofs.offsets_of_nth by lia. rewrite Z2Nat.id by lia.
  unfold Index.count_lt. rewrite Hb, filter_map_swap. apply zlen_map.
Qed.

(** pixels().fetch(region) on a schema-valid collection returns exactly the stored records whose bin1 is a bin of
    the chromosome overlapping the region, in table order *)
Theorem pixels_fetch_stored_spec (c : Index.cooler) blocks i blk s e :
  IndexProofs.ValidCSR c -> ValidBlocks blocks -> zlen (table blocks) = Index.nbins c ->
  nth_error blocks i = Some blk -> 0 <= s < e -> e <= chrom_len blk ->
  pixels_fetch_stored blocks (Index.pixels_of c) (Index.bin1_offset c) (i, Some s, Some e) =
  Some (filter (fun p => bin_overlaps blocks i s e (row p)) (Index.pixels_of c)).
Proof.
  intros HC HV Hn Hi Hse HeL.
  destruct (extent_is_overlap_ids blocks i blk s e HV Hi Hse HeL) as (lo & hi & E & Hlo & Hlh & Hhi & Hk & _).
  unfold pixels_fetch_stored. cbn [fst snd]. rewrite E.
  rewrite !(stored_offset c _ HC) by lia. f_equal.
  rewrite (slice_sorted_range row) by (try lia; destruct HC as (_ & _ & _ & Hs & _); now apply ssorted_rows).
  apply filter_ext. intros p. specialize (Hk (row p)). destruct (bin_overlaps blocks i s e (row p)); lia.
Qed.

(** every record of the input that lies on listed chromosomes has both (shifted) positions inside its chromosome:
    0 <= pos < L.  This is the hypothesis that EXCLUDES the known finding D2 (pos = L passes validation) as well as
    every rejected input; records on unlisted chromosomes are unconstrained (they are dropped). *)
Definition ValidInput (blocks : list (list bin)) (ob : bool) (recs : list record) : Prop :=
  forall r, In r recs -> known r = true ->
    InChrom blocks (wc1 (to_wrow ob r)) (wa1 (to_wrow ob r)) /\
    InChrom blocks (wc2 (to_wrow ob r)) (wa2 (to_wrow ob r)).

Lemma contains_in_table blocks c a k : contains_b blocks c a k = true -> 0 <= k < zlen (table blocks).
Proof.
  intros H. apply contains_b_spec in H as (Hk & x & Hx & _).
  assert (Z.to_nat k < length (table blocks))%nat by (apply nth_error_Some; congruence). unfold zlen. lia.
Qed.

Section ValidChunk.
  Variable blocks : list (list bin).
  Variables (ob : bool) (ta : tril_action) (recs : list record).
  Hypothesis HV : ValidBlocks blocks.
  Hypothesis Hin : ValidInput blocks ob recs.
  Let f := sanitize1 blocks ob true ta.

  Lemma valid_no_error : ta <> TrilRaise -> existsb is_err (map f recs) = false.
  Proof.
    intros Hta. destruct (existsb is_err (map f recs)) eqn:E; [|reflexivity]. exfalso.
    apply existsb_exists in E as (o & Ho & Herr). apply in_map_iff in Ho as (r & <- & Hr).
    unfold f in Herr. destruct (known r) eqn:Hk.
    - destruct (Hin r Hr Hk) as [H1 H2]. rewrite (sanitize1_valid blocks ob r H1 H2) in Herr.
      destruct (is_tril (to_wrow ob r)); [destruct ta|]; cbn in Herr; congruence.
    - rewrite (unknown_dropped blocks ob true ta r Hk) in Herr. discriminate.
  Qed.

  Lemma in_kept o : In o (flat_map kept (map f recs)) -> exists r, In r recs /\ f r = OKeep o.
  Proof.
    intros H. apply in_flat_map in H as (oc & Hoc & Hk). apply in_map_iff in Hoc as (r & <- & Hr).
    exists r. split; [exact Hr|]. destruct (f r); cbn in Hk; try contradiction. destruct Hk as [<-|[]]. reflexivity.
  Qed.

  (** every record a valid input retains has both bins inside the table, and is upper triangular under reflect/drop *)
  Lemma valid_kept o : In o (flat_map kept (map f recs)) ->
    0 <= ob1 o < zlen (table blocks) /\ 0 <= ob2 o < zlen (table blocks) /\
    (ta = TrilReflect \/ ta = TrilDrop -> ob1 o <= ob2 o).
  Proof.
    intros Ho. apply in_kept in Ho as (r & Hr & Ho). unfold f in Ho.
    destruct (accepted_in_range blocks ob ta r o Ho) as [Hk _].
    destruct (Hin r Hr Hk) as [H1 H2].
    destruct (kept_contains blocks ob r HV H1 H2 ta o Ho) as (_ & C1 & C2).
    split; [eapply contains_in_table; eauto|]. split; [eapply contains_in_table; eauto|].
    intros [->| ->].
    - destruct (reflect_upper blocks ob r HV H1 H2) as (o' & Ho' & _ & Hle). rewrite Ho in Ho'. now injection Ho' as <-.
    - rewrite (drop_lower blocks ob r H1 H2) in Ho. destruct (is_tril (to_wrow ob r)) eqn:Et; [discriminate|].
      injection Ho as <-. unfold ob1, ob2. cbn [fst snd]. apply upper_bins; auto. unfold is_tril in Et. lia.
  Qed.
End ValidChunk.

(** a tiled block put before rows of its own or later chromosomes keeps the chromosome column non-decreasing *)
Lemma tiled_chroms_sorted c s blk rest : Tiled c s blk ->
  StronglySorted Z.le (map bchrom rest) -> (forall y, In y rest -> c <= bchrom y) ->
  StronglySorted Z.le (map bchrom (blk ++ rest)).
Proof.
  intros HT HS Hrest. induction HT as [|s e l Hse HT IH]; [exact HS|].
  cbn [app map]. constructor; [exact IH|]. apply Forall_forall. intros v Hv.
  apply in_map_iff in Hv as (y & <- & Hy). change (c <= bchrom y). apply in_app_or in Hy as [Hy|Hy].
  - rewrite (tiled_chrom _ _ _ _ HT Hy). reflexivity.
  - exact (Hrest y Hy).
Qed.

Lemma blocksfrom_chroms_sorted o blocks : BlocksFrom o blocks -> StronglySorted Z.le (map bchrom (concat blocks)).
Proof.
  induction 1 as [o|o blk rest Hne HT HB IH]; [constructor|].
  cbn [concat]. apply (tiled_chroms_sorted o 0); [exact HT|exact IH|].
  intros y Hy. pose proof (blocksfrom_chrom _ _ HB y Hy). lia.
Qed.

Lemma table_chroms blocks : ValidBlocks blocks ->
  IndexProofs.NonDecr (map bchrom (table blocks)) /\
  (forall x, In x (map bchrom (table blocks)) -> 0 <= x < zlen blocks).
Proof.
  intros HV. split.
  - apply (blocksfrom_chroms_sorted 0). now apply valid_blocksfrom.
  - intros x Hx. apply (nodup_In Z.eq_dec), (chroms_of_valid _ HV) in Hx as (j & blk & Hj & ->).
    assert (j < length blocks)%nat by (apply nth_error_Some; congruence). unfold zlen. lia.
Qed.

(** For a valid bin table and an input all of whose records on listed chromosomes lie inside their chromosomes
    (ValidInput: this excludes D2), with reflect / drop for symmetric-upper storage (or any non-raising action for
    square storage): the command succeeds; the pixel table it hands to create() is the canonical aggregate of the
    per-record outputs, strictly sorted, inside [0, nbins)^2 and upper triangular; hence (C02_create_valid) the
    collection written is schema-valid, holds exactly that table, and each stored count is the number of input
    records binned to that pixel. *)
Theorem cload_pairs_valid_collection blocks zero_based ta chunks symm :
  ValidBlocks blocks -> ta <> TrilRaise -> (symm = true -> ta = TrilReflect \/ ta = TrilDrop) ->
  ValidInput blocks (negb zero_based) (concat chunks) ->
  let out := flat_map kept (map (sanitize1 blocks (negb zero_based) true ta) (concat chunks)) in
  let px := aggregate_records out in
  cload_pairs blocks zero_based ta chunks = Some px /\
  SSorted px /\
  (forall p, In p px -> 0 <= row p < zlen (table blocks) /\ 0 <= col p < zlen (table blocks)) /\
  (symm = true -> forall p, In p px -> row p <= col p) /\
  (forall k, look px k = zlen (filter (fun o => keqb (okey o) k) out)) /\
  sumZ (map snd px) = zlen out /\
  exists c, Index.create_model (zlen blocks) (map bchrom (table blocks)) px symm = Some c /\
            IndexProofs.ValidCSR c /\ Index.pixels_of c = px /\
            Index.nbins c = zlen (table blocks) /\ Index.symmetric_upper c = symm.
Proof.
  intros HV Hta Hsym Hin out px.
  pose proof (valid_no_error blocks (negb zero_based) ta (concat chunks) Hin Hta) as Hne.
  pose proof (valid_kept blocks (negb zero_based) ta (concat chunks) HV Hin) as Hout. fold out in Hout.
  destruct (aggregate_records_canon out) as [(Hss & _) Hsum]. fold px in Hss, Hsum.
  (* every stored pixel is the key of a retained record of the input *)
  assert (Hall : forall p, In p px -> 0 <= row p < zlen (table blocks) /\ 0 <= col p < zlen (table blocks) /\
                                    (ta = TrilReflect \/ ta = TrilDrop -> row p <= col p)).
  { intros p Hp. apply in_aggregate_records in Hp as (o & Ho & Hk). unfold row, col. rewrite <- Hk. exact (Hout o Ho). }
  assert (Hrange : forall p, In p px -> 0 <= row p < zlen (table blocks) /\ 0 <= col p < zlen (table blocks))
    by (intros p Hp; destruct (Hall p Hp) as (? & ? & _); auto).
  assert (Hupper : symm = true -> forall p, In p px -> row p <= col p)
    by (intros Hs p Hp; apply (Hall p Hp), Hsym, Hs).
  split.
  { rewrite cload_pairs_spec. unfold collect. rewrite Hne. f_equal. apply aggregate_records_inrange.
    intros o Ho. apply (Hout o Ho). }
  split; [exact Hss|]. split; [exact Hrange|]. split; [exact Hupper|].
  split; [intros k; apply aggregate_records_multiplicity|]. split; [exact Hsum|].
  destruct (table_chroms blocks HV) as [Hnd Hcr].
  assert (Hzl : zlen (map bchrom (table blocks)) = zlen (table blocks)) by (unfold zlen; now rewrite map_length).
  destruct (IndexProofs.create_valid (zlen blocks) (map bchrom (table blocks)) px symm
              ltac:(unfold zlen; lia) Hnd Hcr Hss ltac:(rewrite Hzl; exact Hrange) Hupper)
    as (c & Hc & HVc & Hpx & Hnb & _ & Hsy).
  rewrite Hzl in Hnb. exists c. auto 6.
Qed.

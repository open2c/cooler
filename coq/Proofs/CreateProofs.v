(** Proofs about Model/Create.v.  C01: the writing loop and create, the validator, the frame sort, ArrayLoader, the
    full-matrix views, info()'s decoding of attributes.  C13: create() as a step machine over the file model.
    In this order:
    - Section Write, write_pixels_concat: the writing loop stores the concatenation of the (validated) chunks;
    - Section Validate: acceptance by validate_pixels is [chunk_ok]; Section Sort: sort_rows;
    - Section CreateThm: [create_iff], when create succeeds and what it returns;
    - ArrayLoader ([span_rec] .. [array_loader_spec]); the full-matrix views ([look_*], [sparse_full_*]);
    - info(): metadata / assembly and which names are safe from the JSON decoding; Section MatrixRoundtrip;
    - the file model ([lookup_*], [is_cooler_*]) and the step machine: a failed, crashed or completed run
      ([step_no_new_cooler] .. [run_create_ok]); Section Streams: the same for input streams;
    - a sorted in-range table fits max_size, so valid streams are accepted (Section ValidStream);
    - Section Refine: the step machine completes exactly when the functional create accepts. *)
From Cooler Require Import Model.Create Proofs.PixelsProofs.
From Coq Require Import Permutation Sorting.Sorted ZifyBool FinFun.
Open Scope Z_scope.

Section Write.
Context {V : Type}.
Notation rowT := (key * V)%type.
Variable dflt : rowT.
Variable fits : rowT -> bool.
Variable count : option (rowT -> Z).

Lemma chunk_total_app (a b : list rowT) :
  chunk_total count (a ++ b) = chunk_total count a + chunk_total count b.
Proof.
  unfold chunk_total. destruct count as [f|]; [|lia]. now rewrite map_app, sumZ_app.
Qed.

Lemma chunk_total_nil : chunk_total count ([] : list rowT) = 0.
Proof. unfold chunk_total. destruct count; reflexivity. Qed.

Lemma resize_length (l : list rowT) m : 0 <= m -> length (resize dflt l m) = Z.to_nat m.
Proof.
  intros Hm. unfold resize. rewrite app_length, firstn_length, repeat_length. lia.
Qed.

(** the state of the writing loop once exactly the rows l have been written *)
Definition wrote (l : list rowT) : @wstate V := (l, zlen l, chunk_total count l).

(** Loop invariant of write_pixels: the first nnz stored rows are what was consumed so far ([acc]).
    Whatever lies behind them is cut off by the resize. *)
Lemma write_chunk_eq maxsize stored nnz total acc c :
  nnz = zlen acc -> total = chunk_total count acc -> firstn (length acc) stored = acc ->
  write_chunk dflt fits count maxsize (stored, nnz, total) c =
  if maxsize <? zlen (acc ++ c) then inl ErrMaxSize
  else if negb (forallb fits c) then inl ErrRange else inr (wrote (acc ++ c)).
Proof.
  intros -> -> Hf. unfold write_chunk, wrote. rewrite <- zlen_app, <- chunk_total_app.
  enough (Ha : assign_at (resize dflt stored (zlen (acc ++ c))) (zlen acc) c = acc ++ c) by now rewrite Ha.
  assert (Hlen : (length acc <= length stored)%nat) by (rewrite <- Hf at 1; rewrite firstn_length; lia).
  unfold assign_at. rewrite skipn_all2 by (rewrite resize_length; unfold zlen; rewrite ?app_length; lia).
  rewrite app_nil_r. f_equal. unfold resize, zlen.
  rewrite firstn_app, firstn_firstn, firstn_length, app_length, Nat2Z.id.
  replace (Nat.min (length acc) _) with (length acc) by lia.
  replace (length acc - _)%nat with 0%nat by lia.
  rewrite Hf. apply app_nil_r.
Qed.

Lemma finish_wrote (l : list rowT) : finish_pixels dflt (wrote l) = wrote l.
Proof. unfold finish_pixels, wrote. destruct l; reflexivity. Qed.

(** a state that holds acc in its first nnz rows behaves as [wrote acc], whatever lies behind them *)
Lemma write_pixels_start validate maxsize stored nnz total acc chunks :
  nnz = zlen acc -> total = chunk_total count acc -> firstn (length acc) stored = acc -> chunks <> [] ->
  write_pixels dflt fits count validate maxsize (stored, nnz, total) chunks =
  write_pixels dflt fits count validate maxsize (wrote acc) chunks.
Proof.
  intros Hn Ht Hf Hne. destruct chunks as [|c t]; [congruence|]. cbn [write_pixels].
  destruct (validate c); [reflexivity|]. unfold wrote.
  now rewrite !(write_chunk_eq _ _ _ _ acc) by auto using firstn_all.
Qed.

(** [ok] and [g] describe the validator: it accepts exactly the chunks satisfying ok and hands g c on to the writer
    (for validate_pixels: [chunk_ok] and [prep], see [validate_inr_iff]; for no validator: True and the identity) *)
Lemma write_pixels_iff validate ok g maxsize : (forall c c', validate c = inr c' <-> ok c /\ c' = g c) ->
  forall chunks acc r,
  write_pixels dflt fits count validate maxsize (wrote acc) chunks = inr r <->
  Forall ok chunks /\
  forallb fits (concat (map g chunks)) = true /\
  (chunks <> [] -> zlen (acc ++ concat (map g chunks)) <= maxsize) /\
  r = wrote (acc ++ concat (map g chunks)).
Proof.
  intros Hv. induction chunks as [|c t IH]; intros acc r; cbn [write_pixels map concat].
  - rewrite app_nil_r. split; [intros [= <-]; repeat split; [constructor|congruence]|intros (_ & _ & _ & ->); reflexivity].
  - destruct (validate c) as [e|c'] eqn:E.
    { split; [discriminate|]. intros (Ha & _). apply Forall_inv in Ha. rewrite (proj2 (Hv c _) (conj Ha eq_refl)) in E. discriminate. }
    apply Hv in E. destruct E as [Hc ->]. unfold wrote at 1. rewrite (write_chunk_eq _ _ _ _ acc) by auto using firstn_all.
    rewrite app_assoc, forallb_app.
    pose proof (zlen_app (acc ++ g c) (concat (map g t))) as Hz.
    assert (0 <= zlen (concat (map g t))) by (unfold zlen; lia).
    destruct (maxsize <? zlen (acc ++ g c)) eqn:Em.
    { split; [discriminate|]. intros (_ & _ & Hm & _). specialize (Hm ltac:(discriminate)). lia. }
    destruct (forallb fits (g c)); cbn [negb andb]; [|split; [discriminate|intros (_ & [=] & _)]].
    etransitivity; [apply IH|]. split; intros (Ha & Hf & Hm & ->).
    + split; [constructor; auto|]. split; [auto|]. split; [|reflexivity].
      intros _. destruct t; [cbn; rewrite app_nil_r; lia|apply Hm; discriminate].
    + split; [now apply Forall_inv_tail in Ha|]. split; [auto|]. split; [|reflexivity]. intros _. apply Hm. discriminate.
Qed.
End Write.

(** write_pixels on its own (no validator, empty datasets) *)
Theorem write_pixels_concat {V} (dflt : key * V) fits count maxsize (chunks : list (list (key * V))) r :
  write_pixels dflt fits count (fun c => inr c) maxsize ([], 0, 0) chunks = inr r ->
  r = (concat chunks, zlen (concat chunks), chunk_total count (concat chunks)).
Proof.
  change ([], 0, 0) with (([] : list (key * V)), zlen ([] : list (key * V)), 0). rewrite <- (chunk_total_nil count).
  intros H. apply (write_pixels_iff dflt fits count _ (fun _ => True) (fun c => c)) in H; [|intros c c'; split; [now intros [= <-]|now intros [_ ->]]].
  rewrite map_id in H. tauto.
Qed.

Section Validate.
Context {V : Type}.
Notation rowT := (key * V)%type.

Definition bad_id (n : Z) (r : rowT) : Prop :=
  fst (fst r) < 0 \/ snd (fst r) < 0 \/ n <= fst (fst r) \/ n <= snd (fst r).

Lemma has_neg_false (c : list rowT) :
  has_neg c = false <-> Forall (fun r => 0 <= fst (fst r) /\ 0 <= snd (fst r)) c.
Proof. apply existsb_false_Forall. intros r. lia. Qed.

Lemma has_excess_false n (c : list rowT) :
  has_excess n c = false <-> Forall (fun r => fst (fst r) < n /\ snd (fst r) < n) c.
Proof. apply existsb_false_Forall. intros r. lia. Qed.

Lemma has_tril_false (c : list rowT) :
  has_tril c = false <-> Forall (fun r => fst (fst r) <= snd (fst r)) c.
Proof. apply existsb_false_Forall. intros r. lia. Qed.

Lemma has_dup_false (c : list rowT) : has_dup c = false <-> NoDup (map fst c).
Proof.
  induction c as [|r t IH]; simpl; [split; [constructor|reflexivity]|].
  rewrite orb_false_iff, IH, (existsb_false_Forall _ (fun q => fst r <> fst q)), Forall_forall.
  - split.
    + intros [H1 H2]. constructor; [|exact H2]. intros (q & E & Hq)%in_map_iff. now apply (H1 q).
    + intros H. inversion H as [|? ? Hn Ht]; subst. split; [|exact Ht]. intros q Hq E. apply Hn. rewrite E. now apply in_map.
  - intros q. rewrite <- keqb_eq. now destruct (keqb (fst r) (fst q)).
Qed.

(** what an accepted chunk satisfies *)
Definition chunk_ok (n : Z) (bc tc dc : bool) (c : list rowT) : Prop :=
  (bc = true -> Forall (fun r => 0 <= fst (fst r) < n /\ 0 <= snd (fst r) < n) c) /\
  (tc = true -> Forall (fun r => fst (fst r) <= snd (fst r)) c) /\
  (dc = true -> NoDup (map fst c)).

(** what the validator hands on for an accepted chunk: the chunk, sorted when ensure_sorted is set *)
Definition prep (es : bool) (c : list rowT) : list rowT := if es then sort_rows c else c.

(** one link of a cascade of checks: it is passed when the check is off or finds nothing *)
Lemma check_passed {E A} (b found : bool) (P Q : Prop) (e : E) (x : E + A) y :
  (found = false <-> P) -> (x = inr y <-> Q) ->
  (if b && found then inl e else x) = inr y <-> (b = true -> P) /\ Q.
Proof. destruct b, found; cbn; intuition congruence. Qed.

Lemma validate_inr_iff n bc tc dc es (c c' : list rowT) :
  validate_pixels n bc tc dc es c = inr c' <-> chunk_ok n bc tc dc c /\ c' = prep es c.
Proof.
  unfold validate_pixels. etransitivity.
  - apply check_passed; [apply has_neg_false|]. apply check_passed; [apply has_excess_false|].
    apply check_passed; [apply has_tril_false|]. apply check_passed; [apply has_dup_false|].
    instantiate (1 := c' = if es then sort_rows c else c). split; [now intros [= <-]|now intros ->].
  - (* the two halves of the bounds check make up the range condition of [chunk_ok] *)
    unfold chunk_ok, prep. split.
    + intros (H1 & H2 & H3 & H4 & ->). repeat split; try assumption.
      intros Hb. eapply Forall_impl; [|exact (Forall_and (H1 Hb) (H2 Hb))]. cbn. lia.
    + intros ((H1 & H3 & H4) & ->). repeat split; try assumption;
        intros Hb; (eapply Forall_impl; [|exact (H1 Hb)]); cbn; lia.
Qed.

(** with the default checks a chunk holding an out-of-range id, a lower-triangle
    pixel (checked in symmetric mode) or a repeated key is rejected *)
Lemma validator_complete n tc es (c : list rowT) :
  (exists r, In r c /\ bad_id n r) \/
  (tc = true /\ exists r, In r c /\ snd (fst r) < fst (fst r)) \/
  ~ NoDup (map fst c) ->
  exists e, validate_pixels n true tc true es c = inl e.
Proof.
  intros H.
  destruct (validate_pixels n true tc true es c) as [e|c'] eqn:E; [eauto|exfalso].
  apply validate_inr_iff in E. destruct E as [(Hb & Ht & Hd) _]. rewrite Forall_forall in Hb, Ht.
  destruct H as [(r & Hr & Hbad)|[(-> & r & Hr & Hlow)|Hdup]].
  - specialize (Hb eq_refl r Hr). unfold bad_id, key in *. lia.
  - specialize (Ht eq_refl r Hr). unfold key in *. lia.
  - auto.
Qed.

(** which error: the checks fire in source order *)
Lemma validator_error_kind n tc dc es (c : list rowT) e :
  validate_pixels n true tc dc es c = inl e ->
  (e = ErrNeg /\ has_neg c = true) \/
  (e = ErrExcess /\ has_neg c = false /\ has_excess n c = true) \/
  (e = ErrTril /\ tc = true /\ has_tril c = true) \/
  (e = ErrDup /\ dc = true /\ has_dup c = true).
Proof.
  unfold validate_pixels. cbn [andb].
  destruct (has_neg c); [intros [= <-]; left; auto|].
  destruct (has_excess n c); [intros [= <-]; right; left; auto|].
  destruct (tc && has_tril c) eqn:Et; [intros [= <-]; apply andb_true_iff in Et; right; right; left; exact (conj eq_refl Et)|].
  destruct (dc && has_dup c) eqn:Ed; [intros [= <-]; apply andb_true_iff in Ed; right; right; right; exact (conj eq_refl Ed)|discriminate].
Qed.
End Validate.

Section Sort.
Context {V : Type}.
Notation rowT := (key * V)%type.

Definition kle (a b : key) : Prop := klt a b \/ a = b.

Lemma kltb_false_kle a b : kltb a b = false -> kle b a.
Proof.
  unfold kle, klt, kltb. destruct a as [a1 a2], b as [b1 b2]. cbn [fst snd]. intros H.
  destruct (Z.eq_dec a1 b1), (Z.eq_dec a2 b2); subst; auto; left; lia.
Qed.

Lemma kle_trans a b c : kle a b -> kle b c -> kle a c.
Proof. unfold kle, klt. intros [H1 | ->] [H2 | ->]; auto. left. lia. Qed.

Lemma insert_row_perm (r : rowT) s : Permutation (insert_row r s) (r :: s).
Proof.
  induction s as [|h t IH]; simpl; [reflexivity|].
  destruct (kltb (fst h) (fst r)); [|reflexivity].
  rewrite IH. apply perm_swap.
Qed.

Theorem sort_rows_perm (l : list rowT) : Permutation (sort_rows l) l.
Proof. induction l as [|r t IH]; simpl; [reflexivity|]. now rewrite insert_row_perm, IH. Qed.

Definition RSorted (l : list rowT) : Prop := StronglySorted kle (map fst l).

Lemma insert_row_sorted (r : rowT) s : RSorted s -> RSorted (insert_row r s).
Proof.
  unfold RSorted. induction s as [|h t IH]; simpl; intros Hs.
  - constructor; constructor.
  - inversion Hs as [|? ? Hs' Hf]; subst.
    destruct (kltb (fst h) (fst r)) eqn:E; simpl.
    + constructor; [auto|]. rewrite (insert_row_perm r t). constructor; [|exact Hf]. left. now apply kltb_spec.
    + apply kltb_false_kle in E. constructor; [exact Hs|]. constructor; [exact E|].
      eapply Forall_impl; [|exact Hf]. intros k. now apply kle_trans.
Qed.

Theorem sort_rows_sorted (l : list rowT) : RSorted (sort_rows l).
Proof. induction l as [|r t IH]; simpl; [constructor|]. now apply insert_row_sorted. Qed.

Theorem sort_rows_ssorted (l : list rowT) : NoDup (map fst l) -> StronglySorted klt (map fst (sort_rows l)).
Proof.
  intros Hnd. rewrite <- (sort_rows_perm l) in Hnd.
  induction (sort_rows_sorted l) as [|k t Hs IH Hf]; [constructor|].
  inversion Hnd; subst. constructor; [auto|].
  rewrite Forall_forall in *. intros y Hy. destruct (Hf y Hy) as [H| ->]; [exact H|contradiction].
Qed.

(** two strictly sorted tables with the same rows are equal: the stored order does not depend on the row order
    of the frame *)
Lemma ssorted_perm_eq (a b : list rowT) :
  StronglySorted klt (map fst a) -> StronglySorted klt (map fst b) -> Permutation a b -> a = b.
Proof.
  revert b. induction a as [|x a IH]; intros b Ha Hb Hp.
  - apply Permutation_nil in Hp. now subst.
  - destruct b as [|y b]; [symmetry in Hp; apply Permutation_nil in Hp; discriminate|].
    simpl in Ha, Hb. inversion Ha as [|? ? Ha' Hfa]; inversion Hb as [|? ? Hb' Hfb]; subst.
    assert (Hxy : x = y).
    { assert (Hx : In x (y :: b)) by (eapply Permutation_in; [exact Hp|]; simpl; auto).
      assert (Hy : In y (x :: a)) by (eapply Permutation_in; [symmetry; exact Hp|]; simpl; auto).
      destruct Hx as [-> | Hx]; [reflexivity|]. destruct Hy as [-> | Hy]; [reflexivity|].
      exfalso. rewrite Forall_forall in Hfa, Hfb.
      apply (klt_irrefl (fst x)). eapply klt_trans; [apply Hfa|apply Hfb]; now apply in_map. }
    subst y. f_equal. apply IH; auto. eapply Permutation_cons_inv. exact Hp.
Qed.

End Sort.

Section CreateThm.
Context {V : Type}.
Notation rowT := (key * V)%type.
Variable dflt : rowT.
Variable fits : rowT -> bool.
Variable count : option (rowT -> Z).

Lemma prep_perm es (chunks : list (list rowT)) : Permutation (concat (map (prep es) chunks)) (concat chunks).
Proof.
  induction chunks as [|c t IH]; cbn [map concat]; [constructor|].
  apply Permutation_app; [|exact IH]. destruct es; [apply sort_rows_perm|reflexivity].
Qed.

Theorem create_iff n su bc tc dc es chunks c :
  create dflt fits count n su bc tc dc es chunks = inr c <->
  let stream := concat (map (prep es) chunks) in
  Forall (chunk_ok n bc (tc && su) dc) chunks /\
  forallb fits stream = true /\
  (chunks <> [] -> zlen stream <= max_size n su) /\
  c = {| c_rows := stream; c_nnz := zlen stream; c_sum := chunk_total count stream; c_symm := su; c_nbins := n |}.
Proof.
  unfold create, init_state. cbv zeta.
  destruct chunks as [|c0 t] eqn:Ech.
  { cbn. rewrite chunk_total_nil. split; [intros [= <-]; repeat split; [constructor|congruence]|now intros (_ & _ & _ & ->)]. }
  rewrite <- Ech. assert (Hne : chunks <> []) by (subst; discriminate). clear Ech.
  rewrite (write_pixels_start _ _ _ _ _ _ _ _ []) by (auto using chunk_total_nil).
  pose proof (write_pixels_iff dflt fits count _ _ _ (max_size n su)
                (validate_inr_iff n bc (tc && su) dc es) chunks []) as W. cbn [app] in W.
  destruct (write_pixels _ _ _ _ _ _ chunks) as [e|r].
  - split; [discriminate|]. intros (H1 & H2 & H3 & _). discriminate (proj2 (W _) (conj H1 (conj H2 (conj H3 eq_refl)))).
  - destruct (proj1 (W r) eq_refl) as (H1 & H2 & H3 & ->). rewrite finish_wrote. unfold wrote.
    split; [intros [= <-]; auto|intros (_ & _ & _ & ->); reflexivity].
Qed.

(** C01_create_pixels_roundtrip: whenever creation succeeds, the pixel table reads back as exactly the concatenation of the chunks
    (each sorted first when ensure_sorted is set), whatever the chunk sizes, empty chunks included;
    nnz is its length and sum the total of the count column; every chunk passed the enabled checks. *)
Theorem create_ok_spec n su bc tc dc es chunks c :
  create dflt fits count n su bc tc dc es chunks = inr c ->
  let stream := concat (map (prep es) chunks) in
  c_rows c = stream /\
  read_pixels c = stream /\
  c_nnz c = zlen stream /\
  c_sum c = chunk_total count stream /\
  c_symm c = su /\ c_nbins c = n /\
  Forall (chunk_ok n bc (tc && su) dc) chunks /\
  Forall (fun r => fits r = true) stream /\
  (chunks <> [] -> zlen stream <= max_size n su).
Proof.
  intros H stream. apply create_iff in H. fold stream in H. destruct H as (Hok & Hfit & Hmax & ->).
  rewrite forallb_forall, <- Forall_forall in Hfit. unfold read_pixels. cbn [c_rows c_nnz c_sum c_symm c_nbins].
  unfold zlen at 1. rewrite Nat2Z.id, firstn_all. repeat apply conj; auto.
Qed.

Theorem create_succeeds n su bc tc dc es chunks :
  Forall (chunk_ok n bc (tc && su) dc) chunks ->
  Forall (fun r => fits r = true) (concat chunks) ->
  zlen (concat chunks) <= max_size n su ->
  exists c, create dflt fits count n su bc tc dc es chunks = inr c.
Proof.
  intros Hok Hfit Hmax. eexists. apply create_iff. cbv zeta.
  split; [exact Hok|]. split; [|split; [|reflexivity]].
  - rewrite forallb_forall, <- Forall_forall. now rewrite (prep_perm es chunks).
  - intros _. unfold zlen. now rewrite (prep_perm es chunks).
Qed.
End CreateThm.

(** [span_chunk] by recursion on the rows, without the enumeration *)
Fixpoint span_rec (r : Z) (X : list (list Z)) : list pixel :=
  match X with [] => [] | x :: t => row_entries r x ++ span_rec (r + 1) t end.

Lemma span_chunk_gen lo : forall X a,
  concat (map (fun ix : Z * list Z => row_entries (lo + fst ix) (snd ix)) (combine (zrange a (length X)) X))
  = span_rec (lo + a) X.
Proof.
  induction X as [|x t IH]; intros a; [reflexivity|].
  cbn [length]. rewrite zrange_cons. cbn [combine map concat fst snd span_rec].
  f_equal. rewrite IH. f_equal. lia.
Qed.

Lemma span_chunk_rec lo X : span_chunk lo X = span_rec lo X.
Proof. unfold span_chunk, enumerate. rewrite span_chunk_gen. f_equal. lia. Qed.

Lemma span_rec_app : forall X Y lo, span_rec lo (X ++ Y) = span_rec lo X ++ span_rec (lo + zlen X) Y.
Proof.
  induction X as [|x t IH]; intros Y lo; simpl.
  - f_equal. unfold zlen. simpl. lia.
  - rewrite IH, app_assoc. do 2 f_equal. unfold zlen. simpl length. lia.
Qed.

Lemma partition_concat (A : list (list Z)) c : 1 <= c ->
  forall fuel i, 0 <= i -> (Z.to_nat (zlen A - i) <= fuel)%nat ->
  concat (map (fun lh : Z * Z => span_rec (fst lh) (slice A (fst lh) (snd lh))) (partition_fuel fuel i (zlen A) c))
  = span_rec i (slice A i (zlen A)).
Proof.
  intros Hc. induction fuel as [|f IH]; intros i Hi Hf; cbn [partition_fuel]; [now rewrite slice_past by lia|].
  destruct (i <? zlen A) eqn:E; [|now rewrite slice_past by lia].
  cbn [map concat fst snd]. rewrite IH by lia. set (m := Z.min (i + c) (zlen A)).
  rewrite (slice_split A i m (zlen A)), span_rec_app by lia. f_equal.
  replace (i + zlen (slice A i m)) with m by (unfold zlen at 1; rewrite slice_length; lia).
  (* the next chunk starts at i + c, which is m unless the array ends before *)
  destruct (Z.le_gt_cases (i + c) (zlen A)); [now replace m with (i + c) by lia|].
  now rewrite !slice_past by lia.
Qed.

Theorem array_loader_concat A c : 1 <= c -> concat (array_loader A c) = triu_entries A.
Proof.
  intros Hc. unfold array_loader, triu_entries, partition.
  rewrite span_chunk_rec.
  rewrite (map_ext _ (fun lh : Z * Z => span_rec (fst lh) (slice A (fst lh) (snd lh)))) by (intros; apply span_chunk_rec).
  rewrite (partition_concat A c Hc) by lia. now rewrite slice_all by lia.
Qed.

Lemma in_row_entries r xs i j v :
  In ((i, j), v) (row_entries r xs) <->
  i = r /\ r <= j /\ v <> 0 /\ exists k, j = Z.of_nat k /\ nth_error xs k = Some v.
Proof.
  unfold row_entries. rewrite in_map_iff. split.
  - intros ([j' v'] & [= <- <- <-] & [Hin Hp]%filter_In). apply in_enumerate in Hin. cbn [fst snd] in Hp.
    repeat split; try assumption; lia.
  - intros (-> & Hr & Hv & Hk). exists (j, v). split; [reflexivity|].
    apply filter_In. split; [now apply in_enumerate|cbn [fst snd]; lia].
Qed.

Theorem triu_entries_spec A i j v :
  In ((i, j), v) (triu_entries A) <->
  0 <= i <= j /\ v <> 0 /\
  exists xs, nth_error A (Z.to_nat i) = Some xs /\ nth_error xs (Z.to_nat j) = Some v.
Proof.
  unfold triu_entries, span_chunk. rewrite in_concat. split.
  - intros (l & ([r xs] & <- & (k & -> & Hk)%in_enumerate)%in_map_iff & (-> & Hj & Hv & m & -> & Hm)%in_row_entries).
    cbn [fst snd] in *. rewrite Z.add_0_l, !Nat2Z.id. split; [lia|]. eauto.
  - intros (Hij & Hv & xs & Hx & Hm). exists (row_entries i xs). split.
    + apply in_map_iff. exists (i, xs). split; [reflexivity|]. apply in_enumerate. exists (Z.to_nat i). split; [lia|exact Hx].
    + apply in_row_entries. repeat split; try lia; try assumption. exists (Z.to_nat j). split; [lia|exact Hm].
Qed.

Lemma span_rec_lower : forall X lo i j v, In ((i, j), v) (span_rec lo X) -> lo <= i.
Proof.
  induction X as [|x t IH]; intros lo i j v; cbn [span_rec]; [intros []|].
  intros [(-> & _)%in_row_entries | H%IH]%in_app_iff; lia.
Qed.

Lemma enum_sorted (xs : list Z) : forall a,
  StronglySorted (fun p q : Z * Z => fst p < fst q) (combine (zrange a (length xs)) xs).
Proof.
  induction xs as [|x t IH]; intros a; [constructor|].
  cbn [length]. rewrite zrange_cons. cbn [combine]. constructor; [apply IH|].
  apply Forall_forall. intros [j v] Hin%in_combine_l%in_zrange. cbn [fst]. lia.
Qed.

Lemma row_entries_sorted r xs : StronglySorted klt (keys (row_entries r xs)).
Proof.
  unfold keys, row_entries. rewrite map_map. cbn [fst].
  apply (ssorted_map (fun p q : Z * Z => fst p < fst q)).
  - apply ssorted_filter, enum_sorted.
  - intros x y _ _ H. unfold klt. simpl. lia.
Qed.

Lemma span_rec_sorted : forall X lo, SSorted (span_rec lo X).
Proof.
  unfold SSorted. induction X as [|x t IH]; intros lo; simpl; [constructor|].
  unfold keys in *. rewrite map_app. apply ssorted_app.
  - apply row_entries_sorted.
  - apply IH.
  - intros k1 k2 H1 H2. apply in_map_iff in H1. destruct H1 as ([[i1 j1] v1] & <- & H1).
    apply in_map_iff in H2. destruct H2 as ([[i2 j2] v2] & <- & H2).
    apply in_row_entries in H1. apply span_rec_lower in H2. unfold klt. simpl. lia.
Qed.

Theorem triu_entries_sorted A : SSorted (triu_entries A).
Proof. unfold triu_entries. rewrite span_chunk_rec. apply span_rec_sorted. Qed.

Definition square (n : Z) (A : list (list Z)) : Prop := zlen A = n /\ Forall (fun xs => zlen xs = n) A.

(** for every array and every chunksize >= 1 the concatenated chunks are strictly sorted by (bin1, bin2), upper
    triangular, and are exactly the non-zero entries on or above the diagonal; for a square array all ids are in range *)
Theorem array_loader_spec A c : 1 <= c ->
  let out := concat (array_loader A c) in
  SSorted out /\
  (forall i j v, In ((i, j), v) out <->
     0 <= i <= j /\ v <> 0 /\ exists xs, nth_error A (Z.to_nat i) = Some xs /\ nth_error xs (Z.to_nat j) = Some v) /\
  upper_b out = true /\
  (forall n, square n A -> inrange_b n out = true).
Proof.
  intros Hc out. unfold out. rewrite (array_loader_concat A c Hc).
  split; [apply triu_entries_sorted|]. split; [apply triu_entries_spec|]. split.
  - unfold upper_b. apply forallb_forall. intros [[i j] v] Hin. apply triu_entries_spec in Hin.
    unfold row, col. simpl. lia.
  - intros n [Hn Hsq]. unfold inrange_b. apply forallb_forall. intros [[i j] v] Hin.
    apply triu_entries_spec in Hin. destruct Hin as (Hij & Hv & xs & Hx & Hjv).
    unfold row, col. simpl.
    assert (Hi : (Z.to_nat i < length A)%nat) by (apply nth_error_Some; congruence).
    assert (Hj : (Z.to_nat j < length xs)%nat) by (apply nth_error_Some; congruence).
    apply nth_error_In in Hx. rewrite Forall_forall in Hsq. specialize (Hsq xs Hx).
    unfold zlen in *. lia.
Qed.

Lemma look_mirror px : forall i j,
  look (map flip (filter (fun p => negb (row p =? col p)) px)) (i, j) = if i =? j then 0 else look px (j, i).
Proof.
  induction px as [|[[a b] v] t IH]; intros i j.
  - simpl. now destruct (i =? j).
  - rewrite (look_cons (a, b) v t). cbn [filter]. unfold row, col at 1 2. cbn [fst snd].
    destruct (a =? b) eqn:Eab; cbn [negb].
    + rewrite IH. unfold keqb. cbn [fst snd]. destruct (i =? j) eqn:Eij; [reflexivity|].
      destruct ((j =? a) && (i =? b)) eqn:B; lia.
    + cbn [map]. unfold flip at 1. unfold row, col, val. cbn [fst snd].
      rewrite look_cons, IH. unfold keqb. cbn [fst snd].
      destruct (i =? j) eqn:Eij; destruct ((i =? b) && (j =? a)) eqn:B1; destruct ((j =? a) && (i =? b)) eqn:B2; lia.
Qed.

Lemma look_upper_zero px i j : upper_b px = true -> j < i -> look px (i, j) = 0.
Proof.
  unfold upper_b. induction px as [|[[a b] v] t IH]; intros Hu Hji; [reflexivity|].
  simpl in Hu. apply andb_true_iff in Hu. destruct Hu as [Hab Hu]. unfold row, col in Hab. simpl in Hab.
  rewrite look_cons, IH by auto. unfold keqb. simpl. destruct ((i =? a) && (j =? b)) eqn:B; lia.
Qed.

Theorem sparse_full_symm px i j : upper_b px = true ->
  look (sparse_full true px) (i, j) = symm px i j.
Proof.
  intros Hu. unfold sparse_full, symm. rewrite look_app, look_mirror.
  destruct (i =? j) eqn:E1; destruct (i <=? j) eqn:E2; try lia.
  - rewrite (look_upper_zero px j i) by (auto; lia). lia.
  - rewrite (look_upper_zero px i j) by (auto; lia). lia.
Qed.

Definition swap (k : key) : key := (snd k, fst k).

Lemma keys_flip l : keys (map flip l) = map swap (keys l).
Proof. unfold keys. rewrite !map_map. apply map_ext. intros [[a b] v]. reflexivity. Qed.

Lemma in_mirror px i j :
  In (i, j) (keys (map flip (filter (fun p => negb (row p =? col p)) px))) <-> i <> j /\ In (j, i) (keys px).
Proof.
  unfold keys. rewrite map_map, !in_map_iff. split.
  - intros ([[a b] v] & [= <- <-] & [Hin Hne]%filter_In). unfold row, col in *. cbn in *. split; [lia|]. now exists ((a, b), v).
  - intros [Hne ([[a b] v] & [= -> ->] & Hin)]. exists ((j, i), v). split; [reflexivity|].
    apply filter_In. split; [exact Hin|unfold row, col; cbn; lia].
Qed.

Theorem sparse_full_keys px : SSorted px -> upper_b px = true ->
  NoDup (keys (sparse_full true px)) /\
  forall i j, In (i, j) (keys (sparse_full true px)) <->
              In (i, j) (keys px) \/ (i <> j /\ In (j, i) (keys px)).
Proof.
  intros Hs Hu. apply (ssorted_nodup klt klt_irrefl) in Hs. fold (keys px) in Hs. unfold sparse_full.
  unfold keys at 1 2. rewrite map_app. fold (keys px) (keys (map flip (filter (fun p => negb (row p =? col p)) px))). split.
  - apply NoDup_app_intro; [exact Hs| |].
    + rewrite keys_flip. apply Injective_map_NoDup; [|now apply nodup_map_filter].
      intros [a b] [c d] [= -> ->]. reflexivity.
    + (* a key and its mirror image cannot both lie on or above the diagonal unless they coincide *)
      assert (Hup : forall a b, In (a, b) (keys px) -> a <= b).
      { intros a b ([[a' b'] v] & [= -> ->] & Hin)%in_map_iff. unfold upper_b in Hu. rewrite forallb_forall in Hu.
        specialize (Hu _ Hin). unfold row, col in Hu. cbn in Hu. lia. }
      intros [i j] Hin [Hne Hin2]%in_mirror. apply Hup in Hin, Hin2. lia.
  - intros i j. rewrite in_app_iff, in_mirror. reflexivity.
Qed.

Section InfoThm.
Context {J : Type}.
Variable loads : string -> option J.
Variable dumps : J -> string.
Hypothesis loads_dumps : forall d, loads (dumps d) = Some d.

Theorem metadata_roundtrip (empty_doc d : J) : info_metadata loads dumps empty_doc (Some d) = inl d.
Proof. unfold info_metadata, info_decode, attr_metadata. now rewrite loads_dumps. Qed.

(** guarded: a name that is not itself a JSON document comes back unchanged *)
Theorem assembly_roundtrip (a : string) : loads a = None -> info_assembly loads (Some a) = inr a.
Proof. intros H. unfold info_assembly, info_decode, attr_assembly. now rewrite H. Qed.

(** the mechanism of known finding D13: a name that parses as JSON comes back decoded *)
Theorem assembly_decoded (a : string) (j : J) : loads a = Some j -> info_assembly loads (Some a) = inl j.
Proof. intros H. unfold info_assembly, info_decode, attr_assembly. now rewrite H. Qed.
End InfoThm.

(** the unguarded statement is false of the faithful model: "123" reads back as the integer 123 *)
Theorem assembly_roundtrip_refuted :
  exists a : string, info_assembly json_word (Some a) <> inr a /\ info_assembly json_word (Some a) = inl (JInt 123).
Proof. exists "123"%string. split; [discriminate|reflexivity]. Qed.

(** which names are safe from info()'s JSON decoding (guard of known finding D13, in syntactic form) *)
Definition bad_char (a : ascii) : bool :=
  negb (is_digit a || Ascii.eqb a "-" || Ascii.eqb a "e" || Ascii.eqb a "E").
Fixpoint has_bad (s : string) : bool :=
  match s with EmptyString => false | String a r => bad_char a || has_bad r end.

Lemma all_digits_not_bad s : all_digits s = true -> has_bad s = false.
Proof.
  induction s as [|a r IH]; cbn [all_digits has_bad]; [reflexivity|].
  intros [Ha Hr]%andb_true_iff. unfold bad_char. now rewrite Ha, IH.
Qed.

Lemma intpart_not_bad s : json_intpart s = true -> has_bad s = false.
Proof.
  destruct s as [|a r]; cbn [json_intpart has_bad]; [discriminate|].
  destruct (Ascii.eqb_spec a "0") as [->|_]; [now destruct r|].
  intros [Ha Hr]%andb_true_iff. unfold bad_char. now rewrite Ha, all_digits_not_bad.
Qed.

Lemma exppart_not_bad s : json_exppart s = true -> has_bad s = false.
Proof.
  destruct s as [|a r]; [discriminate|]. unfold json_exppart.
  destruct (Ascii.eqb_spec a "-") as [->|_]; [|apply all_digits_not_bad].
  destruct r; [discriminate|]. exact (all_digits_not_bad _).
Qed.

Lemma has_bad_split s :
  has_bad s = has_bad (fst (split_exp s)) || match snd (split_exp s) with Some ex => has_bad ex | None => false end.
Proof.
  induction s as [|a r IH]; [reflexivity|]. cbn [split_exp has_bad].
  destruct (Ascii.eqb a "e" || Ascii.eqb a "E")%bool eqn:E.
  - unfold bad_char. apply orb_true_iff in E as [E|E]; rewrite E, ?orb_true_r; reflexivity.
  - destruct (split_exp r) as [m e]. cbn [fst snd has_bad] in *. rewrite IH. apply orb_assoc.
Qed.

(** whatever parses as a number consists of digits, '-', 'e' and 'E' *)
Lemma json_number_not_bad s j : json_number s = Some j -> has_bad s = false.
Proof.
  unfold json_number.
  destruct (match s with String a r => if Ascii.eqb a "-" then (true, r) else (false, s) | EmptyString => (false, s) end)
    as [neg body] eqn:Eb.
  assert (Hb : has_bad s = has_bad body).
  { destruct s as [|a r]; [now injection Eb as _ <-|]. destruct (Ascii.eqb_spec a "-") as [->|_]; now injection Eb as _ <-. }
  rewrite Hb, has_bad_split. destruct (split_exp body) as [m e]. cbn [fst snd].
  destruct (json_intpart m) eqn:Em; [|discriminate]. rewrite (intpart_not_bad m Em).
  destruct e as [ex|]; [|reflexivity]. destruct (json_exppart ex) eqn:Ee; [|discriminate]. intros _. now apply exppart_not_bad.
Qed.

Section MatrixRoundtrip.
Context {V : Type}.
Notation rowT := (key * V)%type.
Variable dflt : rowT.
Variable fits : rowT -> bool.
Variable count : option (rowT -> Z).

Lemma keys_px_of (f : V -> Z) (rows : list rowT) : keys (px_of f rows) = map fst rows.
Proof. unfold keys, px_of. rewrite map_map. reflexivity. Qed.

Lemma upper_of_chunks n bc dc (f : V -> Z) (chunks : list (list rowT)) :
  Forall (chunk_ok n bc true dc) chunks -> upper_b (px_of f (concat chunks)) = true.
Proof.
  intros H. unfold upper_b, px_of. rewrite forallb_forall. intros p Hp.
  apply in_map_iff in Hp. destruct Hp as (r & <- & Hr). apply in_concat in Hr. destruct Hr as (ch & Hch & Hr).
  rewrite Forall_forall in H. destruct (H ch Hch) as (_ & Ht & _). specialize (Ht eq_refl).
  rewrite Forall_forall in Ht. specialize (Ht r Hr). unfold row, col, key in *. simpl in *. lia.
Qed.

(** For every stream accepted with the default triangularity check and every value
    column f: the dense full matrix of the created cooler is the symmetric completion of the input records
    (symmetric-upper) or the input matrix itself (square); the sparse full matrix has the same value at every
    cell; and when the stream is strictly sorted every key of the completion is present exactly once and nothing
    else is. *)
Theorem create_matrix_roundtrip n su bc dc chunks c (f : V -> Z) :
  create dflt fits count n su bc true dc false chunks = inr c ->
  let px := px_of f (concat chunks) in
  let got := px_of f (read_pixels c) in
  (forall i j, dense_full (c_symm c) got i j = if su then symm px i j else look px (i, j)) /\
  (forall i j, look (sparse_full (c_symm c) got) (i, j) = if su then symm px i j else look px (i, j)) /\
  (SSorted px ->
     NoDup (keys (sparse_full (c_symm c) got)) /\
     forall i j, In (i, j) (keys (sparse_full (c_symm c) got)) <->
                 In (i, j) (keys px) \/ (su = true /\ i <> j /\ In (j, i) (keys px))).
Proof.
  intros H px got. apply create_ok_spec in H. cbv zeta in H.
  destruct H as (_ & Hread & _ & _ & Hsym & _ & Hok & _).
  assert (Hid : map (prep false) chunks = chunks) by (unfold prep; apply map_id).
  rewrite Hid in Hread. unfold got. rewrite Hread, Hsym. fold px.
  destruct su.
  - assert (Hu : upper_b px = true) by (apply (upper_of_chunks n bc dc); exact Hok).
    split; [reflexivity|]. split; [intros; now apply sparse_full_symm|].
    intros Hs. destruct (sparse_full_keys px Hs Hu) as [Hnd Hk]. split; [exact Hnd|].
    intros i j. rewrite Hk. intuition congruence.
  - split; [reflexivity|]. split; [reflexivity|].
    intros Hs. simpl. split; [now apply (ssorted_nodup klt klt_irrefl)|]. intros i j. intuition congruence.
Qed.
End MatrixRoundtrip.

Lemma path_eqb_eq a : forall b, path_eqb a b = true <-> a = b.
Proof.
  induction a as [|x a IH]; intros [|y b]; simpl; split; try congruence; try reflexivity.
  - intros H. apply andb_true_iff in H. destruct H as [H1 H2]. apply IH in H2. f_equal; [lia|exact H2].
  - intros H. inversion H; subst. rewrite Z.eqb_refl. simpl. now apply IH.
Qed.
Lemma path_eqb_refl a : path_eqb a a = true. Proof. now apply path_eqb_eq. Qed.
Lemma path_eqb_neq a b : a <> b -> path_eqb a b = false.
Proof. intros H. destruct (path_eqb a b) eqn:E; [|reflexivity]. apply path_eqb_eq in E. contradiction. Qed.

Lemma is_prefix_refl d : is_prefix d d = true.
Proof. induction d as [|x d IH]; simpl; [reflexivity|]. now rewrite Z.eqb_refl, IH. Qed.

Lemma lookup_filter (P : path -> bool) f q :
  lookup (filter (fun e : path * group => P (fst e)) f) q = if P q then lookup f q else None.
Proof.
  induction f as [|[r g] t IH]; simpl; [now destruct (P q)|].
  destruct (P r) eqn:Er; simpl.
  - destruct (path_eqb r q) eqn:E; [|exact IH]. apply path_eqb_eq in E. subst. now rewrite Er.
  - rewrite IH. destruct (P q) eqn:Eq; [|reflexivity].
    destruct (path_eqb r q) eqn:E; [|reflexivity]. apply path_eqb_eq in E. subst. congruence.
Qed.

Lemma lookup_remove_under f d q : lookup (remove_under f d) q = if is_prefix d q then None else lookup f q.
Proof.
  unfold remove_under. rewrite (lookup_filter (fun r => negb (is_prefix d r))).
  now destruct (is_prefix d q).
Qed.

Lemma lookup_set f p g q : lookup (set_group f p g) q = if path_eqb p q then Some g else lookup f q.
Proof.
  unfold set_group, remove_path. cbn [lookup]. destruct (path_eqb p q) eqn:E; [reflexivity|].
  rewrite (lookup_filter (fun r => negb (path_eqb r p))). destruct (path_eqb q p) eqn:E2; [|reflexivity].
  apply path_eqb_eq in E2. subst. rewrite path_eqb_refl in E. discriminate.
Qed.

Lemma lookup_ensure f p q :
  lookup (ensure_group f p) q =
  if path_eqb p q then (match lookup f p with Some g => Some g | None => Some fresh end) else lookup f q.
Proof.
  unfold ensure_group. destruct (lookup f p) as [g|] eqn:E.
  - destruct (path_eqb p q) eqn:E2; [|reflexivity]. apply path_eqb_eq in E2. now subst.
  - rewrite lookup_set. reflexivity.
Qed.

(** a write changes the content id of its group (times 31 plus the tag of the step: Model/Create.v, [touch] and
    [step]) and nothing else *)
Lemma lookup_touch f p tag q :
  lookup (touch f p tag) q =
  if path_eqb p q
  then option_map (fun g => {| g_format := g_format g; g_content := g_content g * 31 + tag |}) (lookup f p)
  else lookup f q.
Proof.
  unfold touch. destruct (lookup f p) as [g|] eqn:E.
  - rewrite lookup_set. reflexivity.
  - destruct (path_eqb p q) eqn:E2; [|reflexivity]. apply path_eqb_eq in E2. subst. now rewrite E.
Qed.

(** recognition: only [set_group] can change the format attribute of a path *)
Lemma is_cooler_set f p g q : is_cooler (set_group f p g) q = if path_eqb p q then g_format g else is_cooler f q.
Proof. unfold is_cooler. rewrite lookup_set. now destruct (path_eqb p q). Qed.

Lemma is_cooler_touch f p tag q : is_cooler (touch f p tag) q = is_cooler f q.
Proof.
  unfold is_cooler. rewrite lookup_touch. destruct (path_eqb p q) eqn:E; [|reflexivity].
  apply path_eqb_eq in E. subst. now destruct (lookup f q).
Qed.

Lemma is_cooler_ensure f p q : is_cooler (ensure_group f p) q = is_cooler f q.
Proof.
  unfold is_cooler. rewrite lookup_ensure. destruct (path_eqb p q) eqn:E; [|reflexivity].
  apply path_eqb_eq in E. subst. now destruct (lookup f q).
Qed.

Lemma is_cooler_fold_ensure ps : forall f q, is_cooler (fold_left ensure_group ps f) q = is_cooler f q.
Proof. induction ps as [|p ps IH]; intros f q; cbn [fold_left]; [reflexivity|]. now rewrite IH, is_cooler_ensure. Qed.

Lemma lookup_some_in f p g : lookup f p = Some g -> In p (map fst f).
Proof.
  induction f as [|[r g'] t IH]; simpl; [discriminate|].
  destruct (path_eqb r p) eqn:E; [apply path_eqb_eq in E; auto|auto].
Qed.

Theorem list_coolers_spec f p : In p (list_coolers f) <-> is_cooler f p = true.
Proof.
  unfold list_coolers. rewrite filter_In. split; [tauto|].
  intros H. split; [|exact H]. unfold is_cooler in H. destruct (lookup f p) eqn:E; [|discriminate].
  eapply lookup_some_in; eauto.
Qed.

Lemma step_no_new_cooler dest s f f' :
  s <> SInfo -> exec_step dest s f = Some f' ->
  forall p, is_cooler f' p = true -> is_cooler f p = true.
Proof.
  intros Hs He p. destruct s as [[|]| |tag|[|]|]; cbn [exec_step] in He; try congruence; try injection He as <-.
  - (* open "w": the file is a fresh root group *)
    unfold is_cooler. cbn [lookup]. destruct (path_eqb [] p); cbn; discriminate.
  - (* open "a" *) now rewrite is_cooler_ensure.
  - (* make the target: for a proper destination, everything below it goes and it is set to a fresh group *)
    destruct dest as [|x d]; [injection He as <-; now rewrite is_cooler_touch|].
    generalize dependent (proper_prefixes (x :: d)). intros ps [= <-].
    rewrite is_cooler_set, is_cooler_fold_ensure. unfold is_cooler. rewrite lookup_remove_under.
    destruct (path_eqb (x :: d) p); [discriminate|]. now destruct (is_prefix (x :: d) p).
  - (* write *) now rewrite is_cooler_touch.
  - (* chunk *) now rewrite is_cooler_touch.
Qed.

Lemma run_no_new_cooler dest : forall steps f,
  ~ In SInfo steps ->
  forall p, is_cooler (fst (run dest steps f)) p = true -> is_cooler f p = true.
Proof.
  induction steps as [|s t IH]; intros f Hn p Hp; simpl in *; [exact Hp|].
  destruct (exec_step dest s f) as [f1|] eqn:E; [|exact Hp].
  apply (step_no_new_cooler dest s f f1); [intros ->; tauto|exact E|].
  apply IH; [tauto|exact Hp].
Qed.

Lemma run_app dest a : forall b f,
  run dest (a ++ b) f = (let (f1, ok) := run dest a f in if ok then run dest b f1 else (f1, false)).
Proof.
  induction a as [|s t IH]; intros b f; simpl.
  - now destruct (run dest b f).
  - destruct (exec_step dest s f) as [f1|]; [apply IH|reflexivity].
Qed.

Lemma create_steps_split m oks :
  exists pre, create_steps m oks = pre ++ [SInfo] /\ ~ In SInfo pre.
Proof.
  exists ([SOpen m; SMakeTarget; SWrite 1; SWrite 2; SWrite 3] ++ map SChunk oks ++ [SWrite 5]).
  split.
  - unfold create_steps. rewrite <- !app_assoc. reflexivity.
  - rewrite !in_app_iff. simpl. rewrite in_map_iff.
    intros [H|[(b & H & _)|H]]; [|discriminate|]; intuition discriminate.
Qed.

(** if create() stops anywhere before its end - a rejected
    chunk, an exception of the iterator before any chunk index, a value that does not fit - then no path is
    recognised as a cooler that was not one before; in particular the destination is not, nor is it listed *)
Theorem failed_create_no_new_cooler m dest oks f f' :
  run dest (create_steps m oks) f = (f', false) ->
  forall p, is_cooler f' p = true -> is_cooler f p = true.
Proof.
  destruct (create_steps_split m oks) as (pre & -> & Hn). intros Hr.
  (* whether a step of [pre] or write_info itself raises, the file is left as [pre] got it *)
  enough (f' = fst (run dest pre f)) as -> by now apply run_no_new_cooler.
  rewrite run_app in Hr. destruct (run dest pre f) as [f1 [|]]; [|now injection Hr].
  simpl in Hr. destruct (lookup f1 dest); now injection Hr.
Qed.

Theorem failed_create_not_cooler m dest oks f f' :
  is_cooler f dest = false ->
  run dest (create_steps m oks) f = (f', false) ->
  is_cooler f' dest = false /\ ~ In dest (list_coolers f').
Proof.
  intros H0 Hr. rewrite list_coolers_spec.
  pose proof (failed_create_no_new_cooler m dest oks f f' Hr dest). destruct (is_cooler f' dest); [|auto].
  rewrite H in H0 by reflexivity. discriminate.
Qed.

(** no new cooler anywhere either when the process dies between two steps: after any proper prefix of the step list *)
Theorem crashed_create_not_cooler m dest oks f k :
  (k < length (create_steps m oks))%nat ->
  forall p, is_cooler (fst (run dest (firstn k (create_steps m oks)) f)) p = true -> is_cooler f p = true.
Proof.
  destruct (create_steps_split m oks) as (pre & -> & Hn). rewrite app_length. cbn [length]. intros Hk.
  rewrite firstn_app. replace (k - length pre)%nat with 0%nat by lia. rewrite app_nil_r.
  apply run_no_new_cooler. intros Hin. apply Hn. now apply in_firstn in Hin.
Qed.

(** the groups create() must leave alone: not the destination or below it (for a root destination: not the root) *)
Definition untouched (dest p : path) : Prop :=
  match dest with [] => p <> [] | _ => is_prefix dest p = false end.

Lemma untouched_neq dest p : untouched dest p -> path_eqb dest p = false.
Proof.
  intros H. apply path_eqb_neq. intros <-. destruct dest; [now apply H|].
  unfold untouched in H. rewrite is_prefix_refl in H. discriminate.
Qed.

Lemma fold_ensure_keeps ps : forall f q g, lookup f q = Some g -> lookup (fold_left ensure_group ps f) q = Some g.
Proof.
  induction ps as [|p ps IH]; intros f q g H; cbn [fold_left]; [exact H|].
  apply IH. rewrite lookup_ensure. destruct (path_eqb p q) eqn:E; [|exact H].
  apply path_eqb_eq in E. subst. now rewrite H.
Qed.

Lemma step_frame dest s f f' :
  s <> SOpen ModeW -> exec_step dest s f = Some f' ->
  forall p g, untouched dest p -> lookup f p = Some g -> lookup f' p = Some g.
Proof.
  intros Hs He p g Hu Hl. pose proof (untouched_neq dest p Hu) as Hpe.
  destruct s as [[|]| |tag|[|]|]; cbn [exec_step] in He; try congruence; try injection He as <-.
  - (* open "a" *) now apply (fold_ensure_keeps [[]]).
  - (* make the target *)
    destruct dest as [|x d]; [injection He as <-; now rewrite lookup_touch, Hpe|].
    generalize dependent (proper_prefixes (x :: d)). intros ps [= <-].
    rewrite lookup_set, Hpe. apply fold_ensure_keeps. rewrite lookup_remove_under. unfold untouched in Hu. now rewrite Hu.
  - (* write *) now rewrite lookup_touch, Hpe.
  - (* chunk *) now rewrite lookup_touch, Hpe.
  - (* info *) destruct (lookup f dest) as [g0|]; [|discriminate]. injection He as <-. now rewrite lookup_set, Hpe.
Qed.

Lemma run_frame dest : forall steps f,
  ~ In (SOpen ModeW) steps ->
  forall p g, untouched dest p -> lookup f p = Some g -> lookup (fst (run dest steps f)) p = Some g.
Proof.
  induction steps as [|s t IH]; intros f Hn p g Hu Hl; simpl in *; [exact Hl|].
  destruct (exec_step dest s f) as [f1|] eqn:E; [|exact Hl].
  apply IH; [tauto|exact Hu|]. eapply step_frame; [|exact E|exact Hu|exact Hl]. intros ->. tauto.
Qed.

Lemma create_steps_append_no_w oks : ~ In (SOpen ModeW) (create_steps ModeA oks).
Proof.
  unfold create_steps. rewrite !in_app_iff. simpl. rewrite in_map_iff.
  intros [H|[(b & H & _)|H]]; [|discriminate|]; intuition discriminate.
Qed.

(** frame: in append mode every untouched group that existed before is unchanged - after the whole step list (whether
    or not it completes: [run] returns the file as the failing step found it) and after any prefix of it, k being arbitrary *)
Theorem failed_create_frame dest oks f k p g :
  untouched dest p -> lookup f p = Some g ->
  lookup (fst (run dest (create_steps ModeA oks) f)) p = Some g /\
  lookup (fst (run dest (firstn k (create_steps ModeA oks)) f)) p = Some g.
Proof.
  intros Hu Hl. split; apply run_frame; auto using create_steps_append_no_w.
  intros Hin. apply in_firstn in Hin. now apply create_steps_append_no_w in Hin.
Qed.

Theorem completed_create_is_cooler m dest oks f f' :
  run dest (create_steps m oks) f = (f', true) -> is_cooler f' dest = true.
Proof.
  intros Hr. destruct (create_steps_split m oks) as (pre & Heq & _). rewrite Heq in Hr.
  rewrite run_app in Hr. destruct (run dest pre f) as [f1 ok]. destruct ok; [|discriminate].
  simpl in Hr. destruct (lookup f1 dest) as [g|]; [|discriminate]. injection Hr as <-.
  now rewrite is_cooler_set, path_eqb_refl.
Qed.

Lemma touch_keeps f p tag : lookup f p <> None -> lookup (touch f p tag) p <> None.
Proof.
  intros H. rewrite lookup_touch, path_eqb_refl. destruct (lookup f p); [discriminate|contradiction].
Qed.

Lemma open_ok dest m f : exists f0, exec_step dest (SOpen m) f = Some f0 /\ lookup f0 [] <> None.
Proof.
  destruct m; simpl; eexists; split; try reflexivity.
  - simpl. discriminate.
  - rewrite lookup_ensure, path_eqb_refl. destruct (lookup f []); discriminate.
Qed.

Lemma make_target_ok dest f0 : lookup f0 [] <> None ->
  exists f2, exec_step dest SMakeTarget f0 = Some f2 /\ lookup f2 dest <> None.
Proof.
  intros Hroot. destruct dest as [|x d]; eexists; (split; [reflexivity|]).
  - now apply touch_keeps.
  - rewrite lookup_set, path_eqb_refl. discriminate.
Qed.

(** once the destination group exists the writes cannot fail; only an iteration can *)
Lemma run_chunks dest : forall oks f, lookup f dest <> None ->
  snd (run dest (map SChunk oks ++ [SWrite 5; SInfo]) f) = forallb (fun b => b) oks.
Proof.
  induction oks as [|[|] t IH]; intros f Hd; cbn [map app run exec_step forallb andb].
  - apply (touch_keeps _ _ 5) in Hd. now destruct (lookup (touch f dest 5) dest).
  - now apply IH, touch_keeps.
  - reflexivity.
Qed.

Theorem run_create_ok m dest oks f :
  snd (run dest (create_steps m oks) f) = true <-> Forall (fun b => b = true) oks.
Proof.
  destruct (open_ok dest m f) as (f0 & E0 & H0). destruct (make_target_ok dest f0 H0) as (f2 & E2 & H2).
  unfold create_steps. cbn [app run]. rewrite E0, E2. cbn [exec_step].
  rewrite run_chunks by (repeat apply touch_keeps; exact H2).
  now rewrite forallb_forall, <- Forall_forall.
Qed.

Section Streams.
Context {V : Type}.
Notation rowT := (key * V)%type.

(** an item that must not be accepted with the default checks *)
Definition bad_item (n : Z) (tc : bool) (it : option (list rowT)) : Prop :=
  match it with
  | None => True                                           (* the iterator raises here *)
  | Some c => (exists r, In r c /\ bad_id n r) \/
              (tc = true /\ exists r, In r c /\ snd (fst r) < fst (fst r)) \/
              ~ NoDup (map fst c)
  end.

Lemma bad_item_not_ok n tc es fits it :
  bad_item n tc it -> item_ok (validate_pixels n true tc true es) fits it = false.
Proof.
  destruct it as [c|]; simpl; [|reflexivity]. intros H.
  destruct (validator_complete n tc es c H) as [e ->]. reflexivity.
Qed.

Lemma item_ok_iff n bc tc dc es fits (ch : list rowT) :
  item_ok (validate_pixels n bc tc dc es) fits (Some ch) = true <->
  chunk_ok n bc tc dc ch /\ forallb fits (prep es ch) = true.
Proof.
  cbn [item_ok]. destruct (validate_pixels n bc tc dc es ch) as [e|c'] eqn:E.
  - split; [discriminate|]. intros [Hc _]. rewrite (proj2 (validate_inr_iff _ _ _ _ _ _ _) (conj Hc eq_refl)) in E. discriminate.
  - apply validate_inr_iff in E. destruct E as [Hc ->]. tauto.
Qed.

Lemma items_ok_iff n bc tc dc es fits (chunks : list (list rowT)) :
  Forall (fun ch => item_ok (validate_pixels n bc tc dc es) fits (Some ch) = true) chunks <->
  Forall (chunk_ok n bc tc dc) chunks /\ forallb fits (concat (map (prep es) chunks)) = true.
Proof.
  induction chunks as [|ch t IH]; cbn [map concat]; [now split|]. rewrite forallb_app. split.
  - intros H. pose proof (Forall_inv H) as [Hc Hf]%item_ok_iff. apply Forall_inv_tail, IH in H as [Ht Hft].
    rewrite Hf, Hft. auto.
  - intros [H [Hf Hft]%andb_true_iff]. inversion H; subst. constructor; [apply item_ok_iff|apply IH]; auto.
Qed.

(** C13, ordered creation: a stream holding, at ANY position, a chunk with an out-of-range id, a lower-triangle
    pixel (symmetric mode) or a repeated key, or a point where the iterator raises, makes create() fail, and the
    destination - if it was no cooler before - is neither recognised nor listed as one afterwards; no other path
    becomes a cooler; in append mode every other existing group is unchanged. *)
Theorem invalid_stream_no_cooler m dest n tc es fits (items : list (option (list rowT))) f :
  (exists it, In it items /\ bad_item n tc it) ->
  let '(f', ok) := create_machine m dest (validate_pixels n true tc true es) fits items f in
  ok = false /\
  (forall p, is_cooler f' p = true -> is_cooler f p = true) /\
  (is_cooler f dest = false -> is_cooler f' dest = false /\ ~ In dest (list_coolers f')) /\
  (m = ModeA -> forall p g, untouched dest p -> lookup f p = Some g -> lookup f' p = Some g).
Proof.
  intros (it & Hin & Hbad). unfold create_machine.
  set (oks := map (item_ok (validate_pixels n true tc true es) fits) items).
  pose proof (run_create_ok m dest oks f) as Hok.
  destruct (run dest (create_steps m oks) f) as [f' ok] eqn:Hr. cbn [snd] in Hok.
  assert (ok = false) as ->.
  { destruct ok; [|reflexivity]. unfold oks in Hok. rewrite Forall_map, Forall_forall in Hok.
    rewrite <- (proj1 Hok eq_refl it Hin). now apply bad_item_not_ok. }
  split; [reflexivity|]. split; [|split].
  - apply (failed_create_no_new_cooler m dest oks f f' Hr).
  - intros H0. apply (failed_create_not_cooler m dest oks f f' H0 Hr).
  - intros -> p g Hu Hl. pose proof (proj1 (failed_create_frame dest oks f 0 p g Hu Hl)) as H.
    now rewrite Hr in H.
Qed.

(** unordered creation: the failure happens in the sort pass, the destination file is not touched at all *)
Theorem invalid_stream_unordered_untouched m dest n tc es fits (items : list (option (list rowT))) f :
  (exists it, In it items /\ bad_item n tc it) ->
  create_unordered_machine m dest (validate_pixels n true tc true es) fits items f = (f, false).
Proof.
  intros (it & Hin & Hbad). unfold create_unordered_machine.
  destruct (forallb (item_ok (validate_pixels n true tc true es) fits) items) eqn:E; [|reflexivity].
  rewrite forallb_forall in E. specialize (E it Hin). rewrite bad_item_not_ok in E by exact Hbad. discriminate.
Qed.
End Streams.

(** the cells of the upper triangle of the K x K grid in rows below m, and of the whole grid *)
Definition upper_keys_upto (K m : nat) : list key :=
  flat_map (fun i => map (fun j => (i, j)) (zrange i (K - Z.to_nat i))) (zrange 0 m).
Definition upper_keys (N : nat) : list key := upper_keys_upto N N.
Definition square_keys (N : nat) : list key := list_prod (zrange 0 N) (zrange 0 N).

Lemma in_upper_keys N i j : In (i, j) (upper_keys N) <-> 0 <= i <= j /\ j < Z.of_nat N.
Proof.
  unfold upper_keys, upper_keys_upto. rewrite in_flat_map. split.
  - intros (x & Hx & Hin). apply in_zrange in Hx. apply in_map_iff in Hin.
    destruct Hin as (y & Heq & Hy). inversion Heq; subst. apply in_zrange in Hy. lia.
  - intros H. exists i. split; [apply in_zrange; lia|]. apply in_map_iff. exists j. split; [reflexivity|].
    apply in_zrange. lia.
Qed.

Lemma in_square_keys N i j : In (i, j) (square_keys N) <-> 0 <= i < Z.of_nat N /\ 0 <= j < Z.of_nat N.
Proof. unfold square_keys. rewrite in_prod_iff, !in_zrange. lia. Qed.

Lemma upper_keys_length_gen (K : nat) : forall m, (m <= K)%nat ->
  2 * Z.of_nat (length (upper_keys_upto K m))
  = Z.of_nat m * (2 * Z.of_nat K - Z.of_nat m + 1).
Proof.
  unfold upper_keys_upto. induction m as [|m IH]; intros Hm; [reflexivity|].
  rewrite zrange_snoc, flat_map_app, app_length. cbn [flat_map]. rewrite app_nil_r, map_length, zrange_length.
  rewrite Nat2Z.inj_add. specialize (IH ltac:(lia)).
  replace (Z.to_nat (0 + Z.of_nat m)) with m by lia.
  match goal with |- context[Z.of_nat (length ?x)] => set (L := Z.of_nat (length x)) in * end.
  change (2 * L = Z.of_nat m * (2 * Z.of_nat K - Z.of_nat m + 1)) in IH. clearbody L.
  rewrite Nat2Z.inj_sub by lia. rewrite Nat2Z.inj_succ. nia.
Qed.

Lemma upper_keys_length N : 2 * Z.of_nat (length (upper_keys N)) = Z.of_nat N * (Z.of_nat N + 1).
Proof. unfold upper_keys. rewrite (upper_keys_length_gen N N) by lia. nia. Qed.

Lemma square_keys_length N : Z.of_nat (length (square_keys N)) = Z.of_nat N * Z.of_nat N.
Proof. unfold square_keys, key. rewrite prod_length, zrange_length. lia. Qed.

(** a strictly sorted in-range table never exceeds max_size, so a valid stream is always accepted: its keys are
    distinct cells of the n x n grid (of its upper triangle in symmetric mode) *)
Theorem sorted_table_fits_max_size {V} (n : Z) (su : bool) (rows : list (key * V)) :
  0 <= n ->
  StronglySorted klt (map fst rows) ->
  Forall (fun r => 0 <= fst (fst r) < n /\ 0 <= snd (fst r) < n) rows ->
  (su = true -> Forall (fun r => fst (fst r) <= snd (fst r)) rows) ->
  zlen rows <= max_size n su.
Proof.
  intros Hn Hs Hr Hu. rewrite Forall_forall in Hr.
  assert (Hincl : incl (map fst rows) (if su then upper_keys (Z.to_nat n) else square_keys (Z.to_nat n))).
  { intros [i j] ([[a b] v] & [= -> ->] & Hin)%in_map_iff. pose proof (Hr _ Hin) as Hk. cbn [fst snd] in Hk.
    destruct su; [|apply in_square_keys; lia]. specialize (Hu eq_refl). rewrite Forall_forall in Hu.
    apply Hu in Hin. apply in_upper_keys. cbn [fst snd] in Hin. lia. }
  apply (NoDup_incl_length (ssorted_nodup klt klt_irrefl _ Hs)) in Hincl. rewrite map_length in Hincl. unfold zlen, max_size.
  destruct su.
  - pose proof (upper_keys_length (Z.to_nat n)) as HL. rewrite Z2Nat.id in HL by exact Hn. divlia.
  - pose proof (square_keys_length (Z.to_nat n)) as HL. rewrite Z2Nat.id in HL by exact Hn. lia.
Qed.

Section ValidStream.
Context {V : Type}.
Notation rowT := (key * V)%type.
Variable dflt : rowT.
Variable fits : rowT -> bool.
Variable count : option (rowT -> Z).

(** C01 end to end: EVERY strictly sorted, in-range (upper-triangular in symmetric mode) stream whose values fit,
    cut into chunks in ANY way, is accepted with all default checks on, and reads back exactly *)
Theorem create_valid_stream n su (chunks : list (list rowT)) :
  0 <= n ->
  let stream := concat chunks in
  StronglySorted klt (map fst stream) ->
  Forall (fun r => 0 <= fst (fst r) < n /\ 0 <= snd (fst r) < n) stream ->
  (su = true -> Forall (fun r => fst (fst r) <= snd (fst r)) stream) ->
  Forall (fun r => fits r = true) stream ->
  exists c, create dflt fits count n su true true true false chunks = inr c /\
            c_rows c = stream /\ read_pixels c = stream /\ c_nnz c = zlen stream /\
            c_sum c = chunk_total count stream /\ c_symm c = su.
Proof.
  intros Hn stream Hs Hr Hu Hfit.
  assert (Hok : Forall (chunk_ok n true (true && su) true) chunks).
  { apply Forall_forall. intros ch Hch. split; [|split]; intros Hb.
    - exact (Forall_concat_In _ _ _ Hr Hch).
    - exact (Forall_concat_In _ _ _ (Hu Hb) Hch).
    - exact (NoDup_map_concat_In fst _ _ (ssorted_nodup klt klt_irrefl _ Hs) Hch). }
  destruct (create_succeeds dflt fits count n su true true true false chunks Hok Hfit) as [c Hc].
  - now apply sorted_table_fits_max_size.
  - exists c. split; [exact Hc|]. apply create_ok_spec in Hc. cbv zeta in Hc.
    assert (Hid : map (prep false) chunks = chunks) by (unfold prep; apply map_id).
    rewrite Hid in Hc. tauto.
Qed.
End ValidStream.

Section Refine.
Context {V : Type}.
Notation rowT := (key * V)%type.
Variable dflt : rowT.
Variable fits : rowT -> bool.
Variable count : option (rowT -> Z).

(** for a stream without iterator failures the machine completes exactly when the functional model of create
    accepts the stream (up to the max_size limit, which valid streams never reach) *)
Theorem machine_completes_iff_create_ok m dest n su tc es (chunks : list (list rowT)) f :
  zlen (concat chunks) <= max_size n su ->
  (snd (create_machine m dest (validate_pixels n true (tc && su) true es) fits (map Some chunks) f) = true
   <-> exists c, create dflt fits count n su true tc true es chunks = inr c).
Proof.
  intros Hmax. unfold create_machine. rewrite map_map.
  etransitivity; [apply run_create_ok|]. etransitivity; [apply Forall_map|]. etransitivity; [apply items_ok_iff|].
  split.
  - intros [Hok Hfit]. eexists. apply create_iff. cbv zeta. repeat split; auto.
    intros _. unfold zlen. now rewrite (prep_perm es chunks).
  - intros [c Hc]. apply create_iff in Hc. tauto.
Qed.
End Refine.

(** C14: table selectors return exactly the requested rows; annotation attaches each pixel's own two bins. *)
From Cooler Require Import Model.Query Model.Table Proofs.BaseProofs Proofs.QueryMain.
From Coq Require Import ZifyBool.

(** column f of the table ([] if absent); every column of a well-formed table has n rows *)
Definition colof (t : table) (f : Z) : column := match lookup_col t f with Some c => c | None => [] end.
Definition WellFormed (t : table) (n : Z) : Prop := forall f c, lookup_col t f = Some c -> zlen c = n.

Lemma opt_all_map_in {A B} (f : A -> option B) g l : (forall x, In x l -> f x = Some (g x)) -> opt_all (map f l) = Some (map g l).
Proof.
  induction l as [|a t IH]; intro H; [reflexivity|]. cbn [map opt_all]. rewrite (H a (or_introl eq_refl)).
  rewrite IH by (intros x Hx; apply H; now right). reflexivity.
Qed.
Lemma opt_all_map_some {A B} (g : A -> B) l : opt_all (map (fun x => Some (g x)) l) = Some (map g l).
Proof. now apply opt_all_map_in. Qed.

Theorem get_spec t n lo hi fields : WellFormed t n -> 0 <= lo -> lo <= hi -> hi <= n ->
  (forall f, In f fields -> lookup_col t f <> None) -> fields <> [] ->
  get t lo (Some hi) fields =
  Some (zrange lo (Z.to_nat (hi - lo)), map (fun f => (f, slice (colof t f) lo hi)) fields).
Proof.
  intros Hwf Hlo Hlh Hhi Hin Hne. unfold get.
  rewrite (opt_all_map_in _ (fun f => (f, slice (colof t f) lo hi))).
  - destruct fields as [|f0 fr]; [congruence|]. cbn [map]. do 2 f_equal.
    assert (Hc : lookup_col t f0 <> None) by (apply Hin; now left).
    unfold colof. destruct (lookup_col t f0) as [c|] eqn:E; [|congruence]. rewrite slice_length; [reflexivity|lia|lia|].
    rewrite (Hwf f0 c E). lia.
  - intros f Hf. specialize (Hin f Hf). unfold colof. destruct (lookup_col t f); [reflexivity|congruence].
Qed.

Theorem get_column_subset_commutes t n lo hi fields1 fields2 l1 d1 l2 d2 f c1 c2 :
  WellFormed t n -> 0 <= lo -> lo <= hi -> hi <= n ->
  (forall g, In g fields1 -> lookup_col t g <> None) -> (forall g, In g fields2 -> lookup_col t g <> None) ->
  get t lo (Some hi) fields1 = Some (l1, d1) -> get t lo (Some hi) fields2 = Some (l2, d2) ->
  In (f, c1) d1 -> In (f, c2) d2 -> l1 = l2 /\ c1 = c2.
Proof.
  intros Hwf Hlo Hlh Hhi H1 H2 G1 G2 I1 I2.
  assert (N1 : fields1 <> []) by (intro E; subst; cbn in G1; inversion G1; subst; destruct I1).
  assert (N2 : fields2 <> []) by (intro E; subst; cbn in G2; inversion G2; subst; destruct I2).
  rewrite (get_spec t n lo hi fields1) in G1 by assumption. rewrite (get_spec t n lo hi fields2) in G2 by assumption.
  inversion G1; inversion G2; subst. split; [reflexivity|].
  apply in_map_iff in I1, I2. destruct I1 as [g1 [E1 _]], I2 as [g2 [E2 _]]. inversion E1; inversion E2; subst. reflexivity.
Qed.

(** the selector resolves its slice as arrays do and then reads exactly those rows *)
Theorem selector_slice_spec t n fields start stop : 0 <= n -> WellFormed t n ->
  (forall a, start = Some a -> - n <= a <= n) -> (forall b, stop = Some b -> - n <= b <= n) ->
  (forall f, In f fields -> lookup_col t f <> None) -> fields <> [] ->
  let lo := match start with None => 0 | Some a => a mod n + (if a =? n then n else 0) end in
  let hi := match stop with None => n | Some b => b mod n + (if b =? n then n else 0) end in
  lo <= hi ->
  selector_slice t n fields start stop = Some (zrange lo (Z.to_nat (hi - lo)), map (fun f => (f, slice (colof t f) lo hi)) fields).
Proof.
  intros Hn Hwf Ha Hb Hin Hne lo hi Hlh. unfold selector_slice.
  pose proof (process_slice_spec start stop n Hn Ha Hb) as Hps. destruct (process_slice start stop n) as [l h].
  destruct Hps as [H1 [H2 [H3 H4]]]. fold lo in H3. fold hi in H4. subst l h. apply (get_spec t n); try assumption; lia.
Qed.

(** the same for every bound up to the length, however negative (bounds below -n clamp to 0: repaired defect D33) *)
Theorem selector_slice_array_semantics t n fields start stop : 0 <= n -> WellFormed t n ->
  (forall a, start = Some a -> a <= n) -> (forall b, stop = Some b -> b <= n) ->
  (forall f, In f fields -> lookup_col t f <> None) -> fields <> [] ->
  let lo := match start with None => 0 | Some a => array_bound a n end in
  let hi := match stop with None => n | Some b => array_bound b n end in
  lo <= hi ->
  selector_slice t n fields start stop = Some (zrange lo (Z.to_nat (hi - lo)), map (fun f => (f, slice (colof t f) lo hi)) fields).
Proof.
  intros Hn Hwf Ha Hb Hin Hne lo hi Hlh. unfold selector_slice.
  rewrite (process_slice_array_semantics start stop n Hn Ha Hb). fold lo. fold hi.
  assert (0 <= lo <= n /\ 0 <= hi <= n) as [Hlo Hhi].
  { subst lo hi. unfold array_bound. destruct start, stop; split; lia. }
  apply (get_spec t n); try assumption; lia.
Qed.

(** a fold of a binary choice that is below both arguments (min for <=, max for >=) picks a bound of the list from the list *)
Lemma fold_select (f : Z -> Z -> Z) (R : Z -> Z -> Prop) l d :
  (forall x y, (f x y = x \/ f x y = y) /\ R (f x y) x /\ R (f x y) y) -> (forall x y z, R x y -> R y z -> R x z) -> (forall x, R x x) ->
  In (fold_right f d l) (d :: l) /\ forall b, In b (d :: l) -> R (fold_right f d l) b.
Proof.
  intros Hf Ht Hr. induction l as [|x t [IH1 IH2]]; cbn [fold_right].
  - split; [now left|]. intros b [<-|[]]. apply Hr.
  - destruct (Hf x (fold_right f d t)) as (E & R1 & R2). split.
    + destruct E as [->| ->]; [right; now left|]. destruct IH1 as [<-|H]; [now left|right; now right].
    + intros b [<-|[<-|H]]; [apply (Ht _ _ _ R2), IH2; now left|exact R1|apply (Ht _ _ _ R2), IH2; now right].
Qed.

Theorem annotate_ids_spec v nbins ids : 0 <= vfirst v -> (forall b, In b ids -> vfirst v <= b <= vlast v) ->
  annotate_ids v nbins ids = Some (map (fun b => nth (Z.to_nat (b - vfirst v)) (vrows v) []) ids).
Proof.
  intros Hf Hin. unfold annotate_ids. destruct ids as [|x r]; [reflexivity|].
  set (ids := x :: r) in *.
  destruct (nbins >? zlen ids) eqn:Estrat.
  - (* fewer ids than bins: the code reads only the window [min, max] of the bin ids *)
    set (bmin := zmin_list r x). set (bmax := zmax_list r x).
    destruct (fold_select Z.min Z.le r x ltac:(lia) ltac:(lia) ltac:(lia)) as [Hmin Hlo].
    destruct (fold_select Z.max Z.ge r x ltac:(lia) ltac:(lia) ltac:(lia)) as [Hmax Hhi].
    fold (zmin_list r x) in Hmin, Hlo. fold (zmax_list r x) in Hmax, Hhi. fold bmin in Hmin, Hlo. fold bmax in Hmax, Hhi.
    apply Hin in Hmin, Hmax. assert (Hmm : bmin <= bmax) by (specialize (Hlo x (or_introl eq_refl)); specialize (Hhi x (or_introl eq_refl)); lia).
    unfold loc_slice. cbn [vfirst vrows]. replace (Z.max bmin (vfirst v)) with bmin by lia. replace (Z.min bmax (vlast v)) with bmax by lia.
    set (rows := slice (vrows v) (bmin - vfirst v) (bmax + 1 - vfirst v)).
    assert (Hlen : length rows = Z.to_nat (bmax - bmin + 1)).
    { unfold rows. rewrite slice_length; unfold vlast in *; lia. }
    destruct rows as [|r0 rr] eqn:Erows; [cbn in Hlen; lia|]. rewrite <- Erows in *.
    apply opt_all_map_in. intros b Hb.
    assert (Hb1 := Hlo b Hb). assert (Hb2 := Hhi b Hb).
    unfold iloc. unfold zlen. rewrite Hlen. replace ((0 <=? b - bmin) && (b - bmin <? Z.of_nat (Z.to_nat (bmax - bmin + 1)))) with true by lia.
    f_equal. unfold rows. rewrite nth_slice by lia. f_equal. lia.
  - (* otherwise it reads the whole view *)
    unfold loc_slice. cbn [vfirst vrows]. replace (Z.max 0 (vfirst v)) with (vfirst v) by lia.
    assert (Hx := Hin x (or_introl eq_refl)).
    assert (Hrows : slice (vrows v) (vfirst v - vfirst v) (vlast v + 1 - vfirst v) = vrows v).
    { rewrite Z.sub_diag. apply slice_all. unfold vlast. lia. }
    rewrite Hrows. destruct (vrows v) as [|r0 rr] eqn:Er; [unfold vlast, zlen in Hx; rewrite Er in Hx; cbn in Hx; lia|]. rewrite <- Er in *.
    apply opt_all_map_in. intros b Hb. specialize (Hin b Hb). unfold iloc, vlast in *.
    replace ((0 <=? b - vfirst v) && (b - vfirst v <? zlen (vrows v))) with true by lia. reflexivity.
Qed.

Lemma combine_maps {A B C} (f : A -> B) (g : A -> C) l : combine (combine (map f l) (map g l)) l = map (fun x => ((f x, g x), x)) l.
Proof. induction l as [|a t IH]; [reflexivity|]. cbn [map combine]. now rewrite IH. Qed.

(** every pixel gets the rows of its own two bins; order and index are kept, whatever the relative sizes
    of the bin table and the pixel selection (both strategies of the code) *)
Theorem annotate_spec v nbins px : 0 <= vfirst v ->
  (forall r, In r px -> vfirst v <= fst (fst (snd r)) <= vlast v /\ vfirst v <= snd (fst (snd r)) <= vlast v) ->
  annotate v nbins px =
  Some (map (fun r => (fst r, (nth (Z.to_nat (fst (fst (snd r)) - vfirst v)) (vrows v) [],
                               nth (Z.to_nat (snd (fst (snd r)) - vfirst v)) (vrows v) [],
                               snd r))) px).
Proof.
  intros Hf Hin. unfold annotate.
  rewrite !annotate_ids_spec; try assumption.
  - now rewrite !(map_map _ (fun b => nth _ (vrows v) [])), combine_maps, map_map.
  - intros b Hb. apply in_map_iff in Hb. destruct Hb as [r [<- Hr]]. apply (Hin r Hr).
  - intros b Hb. apply in_map_iff in Hb. destruct Hb as [r [<- Hr]]. apply (Hin r Hr).
Qed.

Theorem decode_chrom_spec names codes k : 0 <= k < zlen codes ->
  nth (Z.to_nat k) (decode_chrom names codes) (-1) = nth (Z.to_nat (nth (Z.to_nat k) codes 0)) names (-1).
Proof.
  intro Hk. unfold decode_chrom. apply (nth_map_lt (fun c => nth (Z.to_nat c) names (-1))). unfold zlen in Hk. lia.
Qed.

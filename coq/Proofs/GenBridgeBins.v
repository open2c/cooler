(** Tie between util.get_binsize as TRANSLATED from util.py on every run ([Gen.get_binsize]: the loop over the
    per-chromosome groups with its early exit, the two sets, the three decisions) and the hand model
    ([Bins.get_binsize]: one duplicate-free list of all non-last widths, one list of last widths, decided at the end).
    The early exit never changes the answer: a set that already holds two widths cannot shrink to one. *)
From Cooler Require Import Model.Bins Gen.Translated.
From Coq Require Import Lia ZifyBool.
Open Scope Z_scope.

Lemma nodup_app_nodup_l (l1 l2 : list Z) : nodup Z.eq_dec (nodup Z.eq_dec l1 ++ l2) = nodup Z.eq_dec (l1 ++ l2).
Proof.
  induction l1 as [|x l1 IH]; [reflexivity|]. cbn [nodup app].
  assert (Hx : In x (nodup Z.eq_dec l1 ++ l2) <-> In x (l1 ++ l2)) by now rewrite !in_app_iff, nodup_In.
  destruct (in_dec Z.eq_dec x l1) as [H1|H1]; cbn [nodup app].
  - destruct (in_dec Z.eq_dec x (l1 ++ l2)) as [_|H]; [exact IH|]. contradict H. apply in_or_app. now left.
  - destruct (in_dec Z.eq_dec x (nodup Z.eq_dec l1 ++ l2)), (in_dec Z.eq_dec x (l1 ++ l2)); [exact IH|tauto|tauto|now rewrite IH].
Qed.

Lemma nodup_length_mono (l1 l2 : list Z) : (length (nodup Z.eq_dec l1) <= length (nodup Z.eq_dec (l1 ++ l2)))%nat.
Proof. apply NoDup_incl_length; [apply NoDup_nodup|]. intros x. rewrite !nodup_In, in_app_iff. tauto. Qed.

(** the loop, in closed form *)
Lemma gb_loop_closed : forall groups s l,
  match Gen.gb_loop groups (nodup Z.eq_dec s) (nodup Z.eq_dec l) with
  | Some (s', l') => s' = nodup Z.eq_dec (s ++ concat (map (@removelast Z) groups))
                     /\ l' = nodup Z.eq_dec (l ++ map (fun g => last g 0) groups)
  | None => (1 < length (nodup Z.eq_dec (s ++ concat (map (@removelast Z) groups))))%nat
  end.
Proof.
  induction groups as [|g groups IH]; intros s l.
  - cbn [Gen.gb_loop map concat]. rewrite !app_nil_r. split; reflexivity.
  - cbn [Gen.gb_loop map concat]. unfold Gen.set_update. rewrite !nodup_app_nodup_l.
    unfold Gen.gb_early_exit, Gen.zlen.
    destruct (Z.of_nat (length (nodup Z.eq_dec (s ++ removelast g))) >? 1) eqn:He.
    + pose proof (nodup_length_mono (s ++ removelast g) (concat (map (@removelast Z) groups))) as Hm.
      rewrite <- app_assoc in Hm. lia.
    + specialize (IH (s ++ removelast g) (l ++ [last g 0])).
      destruct (Gen.gb_loop groups _ _) as [[s' l']|].
      * destruct IH as [Hs Hl]. rewrite <- !app_assoc in Hs, Hl. cbn [app] in Hl. split; assumption.
      * rewrite <- app_assoc in IH. exact IH.
Qed.

Lemma existsb_nodup (f : Z -> bool) (l : list Z) : existsb f (nodup Z.eq_dec l) = existsb f l.
Proof. apply Bool.eq_true_iff_eq. rewrite !existsb_exists. now setoid_rewrite nodup_In. Qed.

Lemma zmax_list_gt (l : list Z) (b x : Z) : In x l -> (Gen.zmax_list l >? b) = existsb (fun w => b <? w) l.
Proof.
  intros Hx. unfold Gen.zmax_list. destruct l as [|y l]; [easy|]. cbn [hd]. clear x Hx.
  assert (H : forall l' d, (fold_right Z.max d l' >? b) = existsb (fun w => b <? w) l' || (d >? b)).
  { induction l' as [|z l' IH]; intro d; cbn [fold_right existsb]; [reflexivity|]. rewrite <- orb_assoc, <- IH. lia. }
  rewrite (H (y :: l) y). cbn [existsb]. lia.
Qed.

Theorem gen_get_binsize_is_model : forall t,
  Gen.get_binsize (map (fun c => map bwidth (rows_of t c)) (chroms_of t)) = get_binsize t.
Proof.
  intro t. unfold Gen.get_binsize, get_binsize.
  set (groups := map (fun c => map bwidth (rows_of t c)) (chroms_of t)).
  pose proof (gb_loop_closed groups [] []) as H. cbn [nodup app] in H.
  destruct (Gen.gb_loop groups [] []) as [[s' l']|].
  - destruct H as [Hs Hl]. subst s' l'.
    set (sizes := nodup Z.eq_dec (concat (map (@removelast Z) groups))).
    unfold Gen.gb_single, Gen.gb_last_longer, Gen.zlen.
    destruct sizes as [|b [|b2 r]] eqn:Es.
    + reflexivity.
    + cbn [length hd]. replace (Z.of_nat 1 =? 1) with true by reflexivity.
      destruct groups as [|g gs] eqn:Eg.
      * cbn in Es. discriminate.
      * rewrite (zmax_list_gt _ b (last g 0)), existsb_nodup; [reflexivity|]. apply nodup_In. now left.
    + cbn [length]. replace (Z.of_nat (S (S (length r))) =? 1) with false by lia. reflexivity.
  - destruct (nodup Z.eq_dec (concat (map (@removelast Z) groups))) as [|b [|b2 r]]; cbn [length] in H; try lia; reflexivity.
Qed.

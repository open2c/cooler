(** C16 integration with C03 (Model/Query.v, Proofs/SpansProofs.v, Proofs/QueryMain.v) and C02 (Proofs/IndexProofs.v):
    the span computation of CSRReader.get_spans as modelled in Model/Query.v is admissible for the dump's engine model for
    every chunk size >= 1, so the dump theorems hold without the admissibility hypothesis; the two engine models agree
    extensionally; corollary over every collection that satisfies the published schema. *)
From Coq Require Import String Permutation Sorted ZifyBool.
From Coq Require Import List.
From Cooler Require Import Model.Dump Proofs.PixelsProofs Proofs.BinsProofs Proofs.DumpProofs Proofs.DumpSpansProofs.
From Cooler Require Model.Query Proofs.QueryProofs Proofs.SpansProofs Proofs.QueryMain Proofs.EndToEnd Model.Index Proofs.IndexProofs.
Open Scope Z_scope.

(** the edge list inside CSRReader.get_spans, with arg_prune_partition of Model/Query.v *)
Definition get_edges (off : list Z) (k : Z) (bb : bbox) : list Z :=
  let '(i0, i1, j0, j1) := bb in
  if (i1 - i0 <? 1) || (j1 - j0 <? 1) then []
  else map (Z.add i0) (Query.arg_prune_partition (slice off i0 (i1 + 1)) k).

Lemma get_spans_edges off k bb : Query.get_spans off k bb = spans_of (get_edges off k bb).
Proof.
  destruct bb as [[[i0 i1] j0] j1]. unfold Query.get_spans, get_edges.
  destruct ((i1 - i0 <? 1) || (j1 - j0 <? 1)); reflexivity.
Qed.

(** [off] is the bin1_offset index of the table: off[i] = number of records with bin1 < i, i = 0..n *)
Definition OffsetsFor (px : list pixel) (n : Z) (off : list Z) : Prop :=
  zlen off = n + 1 /\ forall i, 0 <= i <= n -> znth off i 0 = offset px i.

Lemma sorted_map_mono (f : Z -> Z) m : forall lo,
  (forall a b, a <= b -> f a <= f b) -> StronglySorted Z.le (map f (zrange lo m)).
Proof.
  induction m as [|m IH]; intros lo Hf; [constructor|].
  rewrite zrange_cons. cbn [map]. constructor; [now apply IH|].
  apply Forall_forall. intros y Hy. apply in_map_iff in Hy as (x & <- & Hx). apply in_zrange in Hx. apply Hf. lia.
Qed.

Lemma chain_sorted lo es : QueryProofs.chain lo es -> Sorted Z.le (lo :: es).
Proof.
  revert lo. induction es as [|e t IH]; intros lo H; [repeat constructor|].
  destruct H as [Hle Hc]. constructor; [now apply IH|now constructor].
Qed.

Lemma slice_offsets px n off i0 i1 :
  OffsetsFor px n off -> 0 <= i0 -> i0 <= i1 -> i1 <= n ->
  slice off i0 (i1 + 1) = map (offset px) (zrange i0 (Z.to_nat (i1 - i0 + 1))).
Proof.
  intros [Hlen Hoff] H0 H01 H1.
  assert (Hl : length (slice off i0 (i1 + 1)) = Z.to_nat (i1 - i0 + 1)) by (rewrite slice_length; [f_equal|..]; lia).
  apply (nth_ext _ _ 0 0).
  - now rewrite Hl, map_length, zrange_length.
  - intros k Hk. rewrite Hl in Hk. unfold slice. rewrite nth_firstn_lt, nth_skipn, nth_map_zrange by lia.
    rewrite <- Hoff by lia. unfold znth. f_equal. lia.
Qed.

(** the slice of the index that get_spans searches lists the offsets of rows i0 .. i1 *)
Lemma slice_offsets_facts px n off i0 i1 :
  OffsetsFor px n off -> 0 <= i0 -> i0 <= i1 -> i1 <= n ->
  let seq := slice off i0 (i1 + 1) in
  StronglySorted Z.le seq /\ seq <> [] /\ zlen seq = i1 - i0 + 1 /\
  hd 0 seq = offset px i0 /\ last seq 0 = offset px i1 /\
  forall k, 0 <= k <= i1 - i0 -> nth (Z.to_nat k) seq 0 = offset px (i0 + k).
Proof.
  intros Ho H0 H01 H1 seq. unfold seq. rewrite (slice_offsets px n off i0 i1 Ho H0 H01 H1). clear seq.
  set (m := Z.to_nat (i1 - i0 + 1)). set (seq := map (offset px) (zrange i0 m)).
  assert (Hlen : length seq = m) by (unfold seq; now rewrite map_length, zrange_length).
  assert (Hne : seq <> []) by (intro E; rewrite E in Hlen; cbn in Hlen; lia).
  assert (Hnth : forall k, 0 <= k <= i1 - i0 -> nth (Z.to_nat k) seq 0 = offset px (i0 + k)).
  { intros k Hk. unfold seq. rewrite nth_map_zrange by lia. f_equal. lia. }
  repeat split; try assumption.
  - apply sorted_map_mono. intros. now apply offset_mono.
  - unfold zlen. lia.
  - unfold seq, m. replace (Z.to_nat (i1 - i0 + 1)) with (S (Z.to_nat (i1 - i0))) by lia. now rewrite zrange_cons.
  - rewrite last_nth, Hlen. replace (m - 1)%nat with (Z.to_nat (i1 - i0)) by lia.
    rewrite Hnth by lia. f_equal. lia.
Qed.

(** np.linspace's interior cuts are computed in floating point; whatever they are, as long as the cut sequence contains
    lo and hi and stays <= hi (SpansProofs.AdmissibleCuts), the resulting edges are admissible for the dump's engine *)
Definition edges_with (cutsf : list Z -> list Z) (off : list Z) (bb : bbox) : list Z :=
  let '(i0, i1, j0, j1) := bb in
  if (i1 - i0 <? 1) || (j1 - j0 <? 1) then []
  else map (Z.add i0) (Query.prune_with_cuts (slice off i0 (i1 + 1)) (cutsf (slice off i0 (i1 + 1)))).

Lemma spans_with_edges cutsf off bb : SpansProofs.spans_with cutsf off bb = spans_of (edges_with cutsf off bb).
Proof.
  destruct bb as [[[i0 i1] j0] j1]. unfold SpansProofs.spans_with, edges_with.
  destruct ((i1 - i0 <? 1) || (j1 - j0 <? 1)); reflexivity.
Qed.

Theorem edges_with_admissible px n off cutsf i0 i1 j0 j1 :
  (forall seq, StronglySorted Z.le seq -> seq <> [] -> SpansProofs.AdmissibleCuts seq (cutsf seq)) ->
  OffsetsFor px n off -> 0 <= i0 -> i0 <= i1 -> i1 <= n ->
  AdmissibleCuts px (i0, i1, j0, j1) (edges_with cutsf off (i0, i1, j0, j1)).
Proof.
  intros Hcuts Ho H0 H01 H1. unfold edges_with.
  destruct ((i1 - i0 <? 1) || (j1 - j0 <? 1)) eqn:Ed.
  - now apply no_cuts_admissible.
  - destruct (slice_offsets_facts px n off i0 i1 Ho H0 H01 H1) as (Hs & Hne & Hlen & _ & Hlastseq & Hnth).
    set (seq := slice off i0 (i1 + 1)) in *.
    destruct (SpansProofs.prune_admissible seq _ Hs Hne (Hcuts seq Hs Hne)) as (es & Hp & Hc & Hb & Hl).
    rewrite Hp. cbn [map]. rewrite Z.add_0_r.
    assert (Hlast : last (i0 :: map (Z.add i0) es) i0 = i0 + last es 0).
    { rewrite last_cons. rewrite <- (Z.add_0_r i0) at 2. apply SpansProofs.last_map_add. }
    (* the last edge is a row at which the offset has reached that of i1: no record of the range lies behind it *)
    rewrite Hnth, Hlastseq in Hl by lia.
    split; [|split; [reflexivity|split]].
    + apply chain_sorted. rewrite <- (Z.add_0_r i0) at 1. now apply SpansProofs.chain_map_add.
    + rewrite Hlast. lia.
    + intros p Hp' Hs'. rewrite Hlast.
      destruct (Z_lt_ge_dec (row p) (i0 + last es 0)) as [Hlt|Hge]; [assumption|exfalso].
      unfold span_pred, inb in Hs'.
      pose proof (offset_strict px (i0 + last es 0) i1 p ltac:(lia) Hp' ltac:(lia)). lia.
Qed.

(** the span computation of Model/Query.v is admissible for the dump's engine model, for every chunk size >= 1 *)
Theorem get_edges_admissible px n off k i0 i1 j0 j1 :
  OffsetsFor px n off -> 1 <= k -> 0 <= i0 -> i0 <= i1 -> i1 <= n ->
  AdmissibleCuts px (i0, i1, j0, j1) (get_edges off k (i0, i1, j0, j1)).
Proof.
  intros Ho Hk. apply (edges_with_admissible px n off (SpansProofs.linspace_cuts k)); [|exact Ho].
  intros seq Hs Hne. now apply SpansProofs.linspace_admissible.
Qed.

Definition BoxIn (n : Z) (bb : bbox) : Prop :=
  let '(i0, i1, j0, j1) := bb in 0 <= i0 /\ i0 <= i1 /\ i1 <= n /\ 0 <= j0 /\ j0 <= j1 /\ j1 <= n.

(** direct engine: no admissibility hypothesis left; `Query.get_spans off k` is Model/Query.v's CSRReader.get_spans *)
Theorem dump_direct_every_chunksize c o n off k :
  o_fill o && d_symm c = false ->
  RowSorted (d_px c) -> OffsetsFor (d_px c) n off -> BoxIn n (bbox_of c o) -> 1 <= k ->
  dump_pixels c o (get_edges off k) =
    dump_text c o (Query.get_spans off k (bbox_of c o)) (window_select (d_px c) (bbox_of c o)).
Proof.
  intros Hd Hs Ho Hb Hk. unfold dump_text. rewrite get_spans_edges. apply dump_eq_query_direct; try assumption.
  destruct (bbox_of c o) as [[[i0 i1] j0] j1]. cbn in Hb. apply (get_edges_admissible _ n); tauto.
Qed.

Lemma plan_boxes_in n i0 i1 j0 j1 plan t :
  BoxIn n (i0, i1, j0, j1) -> fill_plan (i0, i1, j0, j1) = Some plan -> In t plan ->
  let '(x0, x1, _, _) := snd t in 0 <= x0 /\ x0 <= x1 /\ x1 <= n.
Proof.
  intros Hb Hp Hin. cbn in Hb. pose proof (fill_plan_partition i0 i1 j0 j1 ltac:(tauto) ltac:(tauto)) as H.
  rewrite Hp in H. destruct H as (_ & _ & Hr). rewrite Forall_forall in Hr. specialize (Hr t Hin).
  unfold rows_within in Hr. destruct (snd t) as [[[x0 x1] y0] y1]. lia.
Qed.

Lemma plan_admissible_rows px n cuts i0 i1 j0 j1 :
  (forall x0 x1 y0 y1, 0 <= x0 -> x0 <= x1 -> x1 <= n -> AdmissibleCuts px (x0, x1, y0, y1) (cuts (x0, x1, y0, y1))) ->
  BoxIn n (i0, i1, j0, j1) -> PlanAdmissible px (i0, i1, j0, j1) cuts.
Proof.
  intros Hc Hb plan t Hp Hin. pose proof (plan_boxes_in n i0 i1 j0 j1 plan t Hb Hp Hin) as Hx.
  destruct t as [tr [[[x0 x1] y0] y1]]. cbn [snd] in *. apply Hc; tauto.
Qed.

Lemma plan_admissible_every_chunksize px n off k i0 i1 j0 j1 :
  OffsetsFor px n off -> 1 <= k -> BoxIn n (i0, i1, j0, j1) ->
  PlanAdmissible px (i0, i1, j0, j1) (get_edges off k).
Proof. intros Ho Hk. apply (plan_admissible_rows px n). intros. now apply (get_edges_admissible px n). Qed.

(** fill-lower engine, every chunk size: a rearrangement of the symmetric completion inside the window, each once *)
Theorem fill_every_chunksize px n off k i0 i1 j0 j1 :
  Upper px -> NoDup px -> RowSorted px -> OffsetsFor px n off -> BoxIn n (i0, i1, j0, j1) -> 1 <= k ->
  exists chunks, fill_chunks px (i0, i1, j0, j1) (get_edges off k) = Some chunks /\
    Permutation (concat chunks) (fill_spec px (i0, i1, j0, j1)) /\ NoDup (concat chunks).
Proof.
  intros HU Hn _ Ho Hb Hk. pose proof Hb as (_ & Hi & _ & _ & Hj & _).
  apply fill_chunks_perm; try assumption. now apply (plan_admissible_every_chunksize px n).
Qed.

(** ... and the text of `dump -f` on a symmetric-upper cooler *)
Theorem dump_fill_every_chunksize c o n off k :
  o_fill o && d_symm c = true ->
  Upper (d_px c) -> NoDup (d_px c) -> RowSorted (d_px c) -> OffsetsFor (d_px c) n off -> BoxIn n (bbox_of c o) -> 1 <= k ->
  exists chunks,
    engine_chunks c o (get_edges off k) = Some chunks /\
    Permutation (concat chunks) (fill_spec (d_px c) (bbox_of c o)) /\ NoDup (concat chunks) /\
    dump_pixels c o (get_edges off k) =
      dump_text c o chunks (concat chunks).
Proof.
  intros Hf HU Hn Hs Ho Hb Hk. destruct (bbox_of c o) as [[[i0 i1] j0] j1] eqn:Ebb.
  destruct (fill_every_chunksize (d_px c) n off k i0 i1 j0 j1 HU Hn Hs Ho Hb Hk) as (chunks & Hc & Hp & Hnd).
  exists chunks. assert (He : engine_chunks c o (get_edges off k) = Some chunks).
  { unfold engine_chunks. now rewrite Hf, Ebb. }
  split; [exact He|]. split; [exact Hp|]. split; [exact Hnd|]. now apply dump_of_chunks.
Qed.

Lemma in_window_query bb p : in_window bb (fst p) = QueryProofs.in_window bb p.
Proof. destruct bb as [[[i0 i1] j0] j1]. apply andb_assoc. Qed.

Lemma window_select_query px bb :
  window_select px bb = filter (QueryProofs.in_window bb) px.
Proof. apply filter_ext, in_window_query. Qed.

(** direct engine: the dump's engine model and Query.direct_query return the same records in the same order *)
Theorem direct_engine_agrees px n off k i0 i1 j0 j1 :
  QueryProofs.ValidCSR n (Query.epx_of px) off -> RowSorted px -> OffsetsFor px n off ->
  1 <= k -> 0 <= i0 -> i0 <= i1 -> i1 <= n ->
  concat (direct_chunks px (i0, i1, j0, j1) (get_edges off k))
  = map snd (Query.direct_query (Query.epx_of px) off (Query.get_spans off k) (i0, i1, j0, j1)).
Proof.
  intros HV Hs Ho Hk H0 H01 H1.
  rewrite (direct_chunks_concat px _ _ Hs (get_edges_admissible px n off k i0 i1 j0 j1 Ho Hk H0 H01 H1)).
  rewrite (QueryMain.direct_query_get_spans n _ _ k i0 i1 j0 j1 HV Hk H0 H01 H1).
  unfold QueryMain.winP. rewrite <- (filter_map_swap (@snd Z pixel) (QueryProofs.in_window (i0, i1, j0, j1))).
  unfold Query.epx_of. rewrite map_snd_enumerate. apply window_select_query.
Qed.

Lemma fill_spec_query px bb :
  fill_spec px bb = filter (QueryProofs.in_window bb) (QueryMain.completion px).
Proof. apply filter_ext, in_window_query. Qed.

(** fill-lower engine: the dump's engine model and Query.fill_lower_query return rearrangements of one another *)
Theorem fill_engine_agrees px n off k i0 i1 j0 j1 :
  QueryProofs.ValidCSR n (Query.epx_of px) off -> Upper px -> NoDup px -> RowSorted px -> OffsetsFor px n off ->
  BoxIn n (i0, i1, j0, j1) -> 1 <= k ->
  exists chunks out,
    fill_chunks px (i0, i1, j0, j1) (get_edges off k) = Some chunks /\
    Query.fill_lower_query (Query.epx_of px) off (Query.get_spans off k) (i0, i1, j0, j1) = Some out /\
    Permutation (concat chunks) (map snd out).
Proof.
  intros HV HU Hn Hs Ho Hb Hk.
  destruct (fill_every_chunksize px n off k i0 i1 j0 j1 HU Hn Hs Ho Hb Hk) as (chunks & Hc & Hp & _).
  cbn in Hb.
  assert (HUq : QueryMain.Upper (Query.epx_of px)).
  { intros r Hr. apply HU. rewrite <- (map_snd_enumerate px). now apply in_map. }
  destruct (QueryMain.fill_lower_get_spans n _ off k i0 i1 j0 j1 HV HUq Hk) as (out & Hq & Hpq); try tauto.
  exists chunks, out. split; [exact Hc|]. split; [exact Hq|].
  rewrite Hp. unfold Query.epx_of in Hpq. rewrite map_snd_enumerate in Hpq.
  rewrite fill_spec_query. now symmetry.
Qed.

Lemma offsets_for_index px n : 0 <= n -> OffsetsFor px n (Index.offsets_of n (map row px)).
Proof.
  intro Hn. unfold OffsetsFor. split.
  - unfold zlen, Index.offsets_of. rewrite map_length, zrange_length. lia.
  - intros i Hi. unfold znth. rewrite IndexProofs.offsets_of_nth, Z2Nat.id by lia.
    unfold Index.count_lt, offset. rewrite filter_map_swap. apply zlen_map.
Qed.

Lemma stored_collection_facts (c : Index.cooler) :
  IndexProofs.ValidCSR c ->
  let px := Index.pixels_of c in
  SSorted px /\ RowSorted px /\ NoDup px /\ (Index.symmetric_upper c = true -> Upper px) /\
  OffsetsFor px (Index.nbins c) (Index.bin1_offset c) /\
  QueryProofs.ValidCSR (Index.nbins c) (Query.epx_of px) (Index.bin1_offset c).
Proof.
  intro HV. pose proof (EndToEnd.stored_cooler_meets_query_hypotheses c HV) as (HQ & _ & _ & _).
  pose proof (EndToEnd.bin1_is_rows c HV) as Hb1. destruct HV as (_ & _ & _ & Hs & Hr & Hu & Hoff & Hbc & _). cbv zeta.
  set (px := Index.pixels_of c) in *.
  assert (Hn : 0 <= Index.nbins c) by (rewrite <- Hbc; unfold zlen; lia).
  repeat split.
  - exact Hs.
  - now apply ssorted_rowsorted.
  - apply (NoDup_map_inv fst). now apply (ssorted_nodup klt klt_irrefl).
  - intros Hsym p Hp. now apply Hu.
  - rewrite Hoff, Hb1. unfold zlen. destruct (offsets_for_index px (Index.nbins c) Hn) as [Hl _]. exact Hl.
  - rewrite Hoff, Hb1. now destruct (offsets_for_index px (Index.nbins c) Hn).
  - exact HQ.
Qed.

(** the dumped cooler [dc] describes the stored collection [c] *)
Definition Describes (dc : dcooler) (c : Index.cooler) : Prop :=
  d_px dc = Index.pixels_of c /\ d_symm dc = Index.symmetric_upper c /\ zlen (d_bins dc) = Index.nbins c.

(** C16 over C02: for EVERY collection that satisfies the published schema, every option setting, every window inside the
    bin table and EVERY -k >= 1 (spans computed by Model/Query.v's CSRReader.get_spans):
    the dump is the annotated list of the stored records inside the window in storage order, resp. (with -f on a
    symmetric-upper collection) the annotation of a rearrangement of the symmetric completion inside the window, each once *)
Theorem stored_collection_dump (c : Index.cooler) (dc : dcooler) o k :
  IndexProofs.ValidCSR c -> Describes dc c -> BoxIn (Index.nbins c) (bbox_of dc o) -> 1 <= k ->
  let cuts := get_edges (Index.bin1_offset c) k in
  (o_fill o && d_symm dc = false ->
     dump_pixels dc o cuts =
       dump_text dc o (Query.get_spans (Index.bin1_offset c) k (bbox_of dc o))
                 (window_select (Index.pixels_of c) (bbox_of dc o))) /\
  (o_fill o && d_symm dc = true ->
     exists chunks,
       engine_chunks dc o cuts = Some chunks /\
       Permutation (concat chunks) (fill_spec (Index.pixels_of c) (bbox_of dc o)) /\ NoDup (concat chunks) /\
       dump_pixels dc o cuts =
         dump_text dc o chunks (concat chunks)).
Proof.
  intros HV (Hpx & Hsym & Hnb) Hb Hk cuts.
  destruct (stored_collection_facts c HV) as (Hs & Hrs & Hnd & HU & Ho & _). rewrite <- Hpx in *.
  split.
  - intro Hd. unfold cuts. now apply (dump_direct_every_chunksize dc o (Index.nbins c)).
  - intro Hf. unfold cuts. apply (dump_fill_every_chunksize dc o (Index.nbins c)); try assumption.
    apply HU. rewrite <- Hsym. apply andb_prop in Hf. tauto.
Qed.

Lemma spans_of_nil_iff a l : spans_of (a :: l) = [] <-> l = [].
Proof. destruct l as [|b t]; [cbn; tauto|]. rewrite spans_of_cons. split; discriminate. Qed.

Theorem get_spans_nil_iff px n off k i0 i1 j0 j1 :
  OffsetsFor px n off -> 1 <= k -> 0 <= i0 -> i0 <= i1 -> i1 <= n ->
  (Query.get_spans off k (i0, i1, j0, j1) = [] <->
   degenerate (i0, i1, j0, j1) = true \/ offset px i0 = offset px i1).
Proof.
  intros Ho Hk H0 H01 H1. rewrite get_spans_edges. unfold get_edges, degenerate.
  destruct ((i1 - i0 <? 1) || (j1 - j0 <? 1)) eqn:Ed; [cbn; tauto|].
  destruct (slice_offsets_facts px n off i0 i1 Ho H0 H01 H1) as (Hs & Hne & Hlen & Hhd & Hlastseq & Hnth).
  set (seq := slice off i0 (i1 + 1)) in *.
  set (cuts := Query.linspace_int (hd 0 seq) (last seq 0) (2 + (last seq 0 - hd 0 seq) / k)).
  assert (Hadm : SpansProofs.AdmissibleCuts seq cuts) by (now apply SpansProofs.linspace_admissible).
  destruct (SpansProofs.prune_admissible seq cuts Hs Hne Hadm) as (es & Hp & Hc & Hb & Hl).
  change (Query.arg_prune_partition seq k) with (Query.prune_with_cuts seq cuts).
  pose proof (SpansProofs.unique_sorted (map (searchsorted_left seq) cuts)) as Hstrict.
  fold (Query.prune_with_cuts seq cuts) in Hstrict.
  assert (Hmem : forall e, In e es -> exists cut, cut <= last seq 0 /\ e = searchsorted_left seq cut).
  { intros e He. assert (Hin : In e (Query.prune_with_cuts seq cuts)) by (rewrite Hp; now right).
    unfold Query.prune_with_cuts in Hin. rewrite SpansProofs.unique_in in Hin. apply in_map_iff in Hin as (cut & <- & Hcut).
    exists cut. split; [|reflexivity]. destruct Hadm as (_ & _ & Hall). rewrite Forall_forall in Hall. now apply Hall. }
  rewrite Hp in *. cbn [map]. rewrite spans_of_nil_iff. split.
  - intro E. right. apply map_eq_nil in E. subst es. cbn [last] in Hl. rewrite (Hnth 0), Hlastseq, Z.add_0_r in Hl by lia. exact Hl.
  - (* equal offsets: every cut is <= the first element, whose insertion point is 0, and 0 is an edge already *)
    intros [Hx|Heq]; [discriminate|].
    destruct es as [|e t]; [reflexivity|exfalso].
    apply StronglySorted_inv in Hstrict as [_ Hall]. apply Forall_inv in Hall.
    destruct (Hmem e (or_introl eq_refl)) as (cut & Hcut & ->).
    pose proof (ss_left_mono seq cut (hd 0 seq) ltac:(lia)). pose proof (ss_left_hd seq 0). lia.
Qed.

(** chunk-size independence of the dump of a stored collection (direct engine): any two -k >= 1 give the same text *)
Corollary stored_collection_dump_chunksize_independent (c : Index.cooler) (dc : dcooler) o k1 k2 :
  IndexProofs.ValidCSR c -> Describes dc c -> BoxIn (Index.nbins c) (bbox_of dc o) -> 1 <= k1 -> 1 <= k2 ->
  o_fill o && d_symm dc = false ->
  dump_pixels dc o (get_edges (Index.bin1_offset c) k1) = dump_pixels dc o (get_edges (Index.bin1_offset c) k2).
Proof.
  intros HV (Hpx & _ & _) Hb H1 H2 Hd. destruct (stored_collection_facts c HV) as (_ & Hrs & _ & _ & Ho & _).
  rewrite <- Hpx in *. destruct (bbox_of dc o) as [[[i0 i1] j0] j1] eqn:Ebb. cbn in Hb.
  apply dump_chunk_independent; rewrite ?Ebb; try assumption.
  1, 2: apply (get_edges_admissible _ (Index.nbins c)); tauto.
  rewrite <- !get_spans_edges, !(get_spans_nil_iff (d_px dc) (Index.nbins c)) by tauto. reflexivity.
Qed.

(** the index as Model/Query.v derives it from a table is the one [OffsetsFor] describes *)
Lemma offsets_for_query px n : 0 <= n -> OffsetsFor px n (Query.offsets_of n px).
Proof.
  intro Hn. unfold OffsetsFor, Query.offsets_of. split.
  - unfold zlen. rewrite map_length, zrange_length. lia.
  - intros i Hi. unfold znth. change (fun b : Z => zlen (filter (fun p : pixel => row p <? b) px)) with (offset px).
    rewrite nth_map_zrange by lia. f_equal. lia.
Qed.

(** C02  Every cooler any operation writes is a structurally valid CSR collection.
    Statements.  A proof here is [exact] of the lemma with the same statement, a few lines from the general lemmas, or an evaluation for a concrete witness;
    the lemmas are in Proofs/IndexProofs.v and Proofs/HistoryProofs.v (Proofs/GenBridgeCreate.v for the source tie).
    Model: Model/Index.v (util.rlencode, create._create.index_pixels / index_bins). *)
From Cooler Require Import Model.Merge Model.Coarsen Model.Bins Model.Index.
From Cooler Require Import Proofs.PixelsProofs Proofs.BinsProofs Proofs.MergeProofs Proofs.CoarsenProofs Proofs.IndexProofs Proofs.HistoryProofs.
From Cooler Require Model.Zoom Proofs.ZoomProofs.
From Coq Require Import Sorted.

(** the block-wise run-length encoder equals the one-shot encoder for every array and every
    block size c >= 1 (starts, lengths, values): the unbounded form of "drive it across the
    1e6-row block boundary" *)
Theorem C02_rlencode_chunked_eq : forall (a : list Z) (c : Z),
  1 <= c -> rlencode a (Some c) = rlencode a None.
Proof. exact rlencode_chunked_eq. Qed.
Print Assumptions C02_rlencode_chunked_eq.

(** ... and both equal the specification: a run starts exactly where an element differs
    from its predecessor *)
Theorem C02_rlencode_spec : forall (a : list Z) (c : Z),
  1 <= c -> rlencode a (Some c) = Some (rle_spec a) /\ rlencode a None = Some (rle_spec a).
Proof. intros a c Hc. split; apply rlencode_eq; [now intros ? [= <-]|discriminate]. Qed.
Print Assumptions C02_rlencode_spec.

(** index_pixels on a non-decreasing column of non-negative ids: n+1 entries,
    offset[b] = #{k | a[k] < b} for b = 0..n  (block size 1000000 as in the code) *)
Theorem C02_index_pixels_spec : forall (a : list Z) (n : Z),
  0 <= n -> NonDecr a -> Forall (fun x => 0 <= x) a ->
  index_pixels a n (zlen a) = Some (offsets_of n a).
Proof. exact index_pixels_spec. Qed.
Print Assumptions C02_index_pixels_spec.

Theorem C02_index_pixels_any_block : forall (c : Z) (a : list Z) (n : Z),
  1 <= c -> 0 <= n -> NonDecr a -> Forall (fun x => 0 <= x) a ->
  index_pixels_c c a n (zlen a) = Some (offsets_of n a).
Proof. exact index_pixels_c_spec. Qed.
Print Assumptions C02_index_pixels_any_block.

Theorem C02_index_bins_spec : forall (a : list Z) (n : Z),
  0 <= n -> NonDecr a -> Forall (fun x => 0 <= x) a ->
  index_bins a n (zlen a) = Some (offsets_of n a).
Proof. exact index_bins_spec. Qed.
Print Assumptions C02_index_bins_spec.

(** consequences used by every reader: n+1 entries, offset[0] = 0, offset[n] = nnz, monotone,
    and offset[a[k]] <= k < offset[a[k]+1] *)
Theorem C02_offsets_props : forall (n : Z) (a : list Z),
  0 <= n -> NonDecr a -> Forall (fun x => 0 <= x < n) a ->
  let off := offsets_of n a in
  length off = Z.to_nat (n + 1) /\
  nth 0 off 0 = 0 /\
  nth (Z.to_nat n) off 0 = zlen a /\
  (forall b b', (b <= b')%nat -> (b' <= Z.to_nat n)%nat -> nth b off 0 <= nth b' off 0) /\
  (forall k, (k < length a)%nat ->
     nth (Z.to_nat (nth k a 0)) off 0 <= Z.of_nat k < nth (Z.to_nat (nth k a 0 + 1)) off 0).
Proof. exact offsets_props. Qed.
Print Assumptions C02_offsets_props.

(** row b of the pixel table is exactly the position range [offset b, offset (b+1)) *)
Theorem C02_csr_row_iff : forall (a : list Z) (b : Z) (k : nat),
  NonDecr a -> (k < length a)%nat ->
  (count_lt a b <= Z.of_nat k < count_lt a (b + 1) <-> nth k a 0 = b).
Proof. exact csr_row_iff. Qed.
Print Assumptions C02_csr_row_iff.

(** what create() stores for a validated, strictly sorted stream is a valid collection that
    holds exactly the stream *)
Theorem C02_create_valid : forall (n_chroms : Z) (chroms : list Z) (px : list pixel) (symm : bool),
  0 <= n_chroms -> NonDecr chroms -> (forall x, In x chroms -> 0 <= x < n_chroms) ->
  SSorted px ->
  (forall p, In p px -> 0 <= row p < zlen chroms /\ 0 <= col p < zlen chroms) ->
  (symm = true -> forall p, In p px -> row p <= col p) ->
  exists c, create_model n_chroms chroms px symm = Some c /\ ValidCSR c /\ pixels_of c = px
            /\ nbins c = zlen chroms /\ nnz c = zlen px /\ symmetric_upper c = symm.
Proof. exact create_valid. Qed.
Print Assumptions C02_create_valid.

(** the executable check run on the raw columns of every written file decides ValidCSR *)
Theorem C02_valid_check_sound_complete : forall c : cooler, valid_csr_b c = true <-> ValidCSR c.
Proof. exact valid_csr_b_spec. Qed.
Print Assumptions C02_valid_check_sound_complete.

(** the specification the encoder equals IS the run-length encoding of the array: it decodes
    back to the array, runs are non-empty and maximal (neighbouring values differ), starts are
    strictly increasing and end before the array length *)
Theorem C02_rle_spec_characterised : forall a : list Z,
  let '(starts, lengths, values) := rle_spec a in
  rle_decode (starts, lengths, values) = a /\
  AdjDistinct None values /\
  Forall (fun l => 1 <= l) lengths /\
  StronglySorted Z.lt (starts ++ [zlen a]) /\
  length starts = length values /\ length lengths = length values.
Proof. exact rle_spec_characterised. Qed.
Print Assumptions C02_rle_spec_characterised.

(** bin-type / bin-size attributes agree with the stored bin table: "fixed" iff a size is
    recorded, and a recorded size is true of every chromosome (C20's truthfulness theorem) *)
Theorem C02_info_consistent : forall (blocks : list (list Bins.bin)) (fixed : bool) (bs : option Z),
  ValidBlocks blocks -> info_bins (concat blocks) = (fixed, bs) ->
  (fixed = true <-> exists b, bs = Some b) /\
  (fixed = false <-> bs = None) /\
  bs = Bins.get_binsize (concat blocks) /\
  forall b, bs = Some b ->
    1 <= b /\ forall i blk, nth_error blocks i = Some blk ->
      blk = Bins.ideal_chrom (Z.of_nat i) (chrom_end blk) b.
Proof. exact info_consistent. Qed.
Print Assumptions C02_info_consistent.

(** ValidCSR is an invariant of every history of producing operations, GIVEN the producer
    theorems (every operation streams strictly sorted, in-range, upper-triangular pixels over a
    valid bin table when its inputs are valid), with the operations left abstract ([op], [plan]).
    Nothing instantiates this statement: for the modelled producers the hypothesis is replaced by their
    theorems in C02_merge_valid .. C02_history_valid below, which are proved separately (Proofs/HistoryProofs.v). *)
Theorem C02_history_valid_given_producers :
  forall (op : Type) (plan : op -> list cooler -> Z * list Z * list pixel * bool),
  (forall o st, Forall ValidCSR st -> GoodStream (plan o st)) ->
  forall (ops : list op) (init : list cooler),
  Forall ValidCSR init ->
  Forall ValidCSR (run_history op plan ops init) /\
  (length (run_history op plan ops init) = length init + length ops)%nat.
Proof. exact history_valid. Qed.
Print Assumptions C02_history_valid_given_producers.

(** pixel columns have one common length equal to the recorded nnz: whatever the preallocated size
    and however the stream is cut into chunks (no chunk at all and empty chunks included), the
    resize/write loop of write_pixels leaves the concatenation of the chunks and returns its length *)
Theorem C02_write_pixels_col_spec : forall (init : Z) (chunks : list (list Z)),
  write_pixels_col init chunks = (concat chunks, zlen (concat chunks)).
Proof. exact write_pixels_col_spec. Qed.
Print Assumptions C02_write_pixels_col_spec.

(** ... which was false before the repair of defect D21 (empty stream, preallocated rows stay) *)
Theorem C02_write_pixels_col_old_refuted :
  exists init chunks, write_pixels_col_old init chunks <> (concat chunks, zlen (concat chunks)).
Proof. exact write_pixels_col_old_refuted. Qed.
Print Assumptions C02_write_pixels_col_old_refuted.

(** create() fed chunk by chunk = create() on the concatenated stream, so C02_create_valid covers
    every chunking *)
Theorem C02_create_chunked_eq : forall (n_chroms : Z) (chroms : list Z) (chunks : list (list pixel)) (symm : bool),
  create_chunked n_chroms chroms chunks symm = create_model n_chroms chroms (concat chunks) symm.
Proof. exact create_chunked_eq. Qed.
Print Assumptions C02_create_chunked_eq.

(** re-indexing a valid collection with any block size reproduces its stored indexes *)
Theorem C02_reindex_valid : forall (c : cooler) (cs : Z),
  ValidCSR c -> 0 <= nchroms c -> 1 <= cs ->
  index_pixels_c cs (bin1 c) (nbins c) (nnz c) = Some (bin1_offset c) /\
  index_pixels (bin1 c) (nbins c) (nnz c) = Some (bin1_offset c) /\
  index_bins (bin_chrom c) (nchroms c) (nbins c) = Some (chrom_offset c).
Proof. exact reindex_valid. Qed.
Print Assumptions C02_reindex_valid.

(** in a valid collection row b is exactly the position range [bin1_offset b, bin1_offset (b+1)) *)
Theorem C02_valid_row_span : forall (c : cooler) (b : Z) (k : nat),
  ValidCSR c -> (k < length (bin1 c))%nat -> 0 <= b < nbins c ->
  (nth (Z.to_nat b) (bin1_offset c) 0 <= Z.of_nat k < nth (Z.to_nat (b + 1)) (bin1_offset c) 0
   <-> nth k (bin1 c) 0 = b).
Proof. exact validcsr_row_span. Qed.
Print Assumptions C02_valid_row_span.

(** the hypotheses are needed.  (1) sortedness for the index; (2) the range check for validity:
    with the bounds check off (`cooler cload pairs`, known finding D2) create() stores a stream with a
    bin id = nbins and the result is NOT a valid collection — the unguarded statement "every written
    collection is valid" is false of the faithful model, C02_create_valid is the guarded one *)
Theorem C02_index_pixels_unsorted_refuted :
  exists a n, Forall (fun x => 0 <= x < n) a /\ index_pixels a n (zlen a) <> Some (offsets_of n a).
Proof. exact index_pixels_unsorted_refuted. Qed.
Print Assumptions C02_index_pixels_unsorted_refuted.

Theorem C02_create_unchecked_refuted :
  exists nc chroms px, 0 <= nc /\ NonDecr chroms /\ (forall x, In x chroms -> 0 <= x < nc) /\
    SSorted px /\ (forall p, In p px -> row p <= col p) /\
    exists c, create_model nc chroms px true = Some c /\ ~ ValidCSR c.
Proof. exact create_unchecked_refuted. Qed.
Print Assumptions C02_create_unchecked_refuted.

(** What C02_history_valid_given_producers assumes of the producers is proved here from their own theorems
    (C07 merge_g_total, C06 unordered_correct, C08 coarsen_canon/coarsen_bins_spec/
    index_table_range, C09 zoom_level_eq_direct); Proofs/HistoryProofs.v.  [of_csr c] is what the merger
    reads of a stored collection (indexes/bin1_offset, pixel table); [mk_cool n px] is what the merge/ingest
    models store (table + Merge.index_of); the last conjunct of each theorem says that this is exactly the
    index index_pixels computes. *)

(** merge_coolers of valid collections over one bin table and storage mode: never fails, stores the
    canonical aggregate of all input pixels, the result is a valid collection — every buffer size *)
Theorem C02_merge_valid : forall (nc : Z) (chroms : list Z) (symm : bool) (inputs : list Index.cooler) (buf : Z),
  inputs <> [] -> 1 <= zlen chroms -> 0 <= nc -> 0 <= buf ->
  Forall ValidCSR inputs -> Forall (SameAxes nc chroms symm) inputs ->
  let n := length chroms in
  let o := {| o_bounds := true; o_triu := symm; o_dup := true; o_sort := false |} in
  let out := aggregate (concat (map pixels_of inputs)) in
  merge_g n o (fun _ => true) sumZ (map of_csr inputs) buf = Ok (mk_cool n out) /\
  exists c, create_model nc chroms out symm = Some c /\ ValidCSR c /\ pixels_of c = out /\
            SameAxes nc chroms symm c /\ of_csr c = mk_cool n out.
Proof. exact merge_valid. Qed.
Print Assumptions C02_merge_valid.

(** create_cooler(ordered=False) on chunks that meet the documented input conditions: never fails, stores
    the canonical aggregate of all records, the result is a valid collection — every chunking, chunk
    order, mergebuf and max_merge *)
Theorem C02_unordered_valid : forall (nc : Z) (chroms : list Z) (symm : bool) (o : copts)
    (chunks : list (list pixel)) (buf max_merge : Z),
  chunks <> [] -> 1 <= zlen chroms -> 0 <= nc -> 0 <= buf ->
  NonDecr chroms -> (forall x, In x chroms -> 0 <= x < nc) ->
  (o_triu o = true -> symm = true) ->
  let n := length chroms in
  Forall (GoodChunk n symm o) chunks ->
  let out := aggregate (concat chunks) in
  unordered_g n o (fun _ => true) sumZ chunks buf (unordered_edges (length chunks) max_merge) = Ok (mk_cool n out) /\
  exists c, create_model nc chroms out symm = Some c /\ ValidCSR c /\ pixels_of c = out /\
            SameAxes nc chroms symm c /\ of_csr c = mk_cool n out.
Proof. exact unordered_valid. Qed.
Print Assumptions C02_unordered_valid.

(** coarsen_cooler of a valid collection: valid new bin table, canonical aggregate of the re-keyed pixels,
    valid collection — every factor k >= 1, chunk size, batch size *)
Theorem C02_coarsen_valid : forall (blocks : list (list Bins.bin)) (c : Index.cooler) (k chunksize batchsize : Z),
  EntryOK (blocks, c) -> 1 <= k -> 1 <= chunksize -> 1 <= batchsize ->
  let sizes := map chrom_end blocks in
  let r := coarsen_cooler (concat blocks) sizes (pixels_of c) k chunksize batchsize in
  let nb := map (coarsen_block k) blocks in
  fst r = concat nb /\
  snd r = aggregate (map (rekey (index_table (map zlen blocks) k)) (pixels_of c)) /\
  exists c', create_model (zlen nb) (map bchrom (concat nb)) (snd r) (symmetric_upper c) = Some c' /\
             EntryOK (nb, c') /\ pixels_of c' = snd r /\ symmetric_upper c' = symmetric_upper c.
Proof. exact coarsen_valid. Qed.
Print Assumptions C02_coarsen_valid.

(** every level zoomify_cooler writes from valid bases is a copied base or what one coarsen step stores *)
Theorem C02_zoom_levels_valid : forall (ebases : list (Z * entry)) (res : list Z) (cs bs : Z) lv,
  1 <= cs -> 1 <= bs -> ZoomProofs.Positive res -> ZoomProofs.Positive (map fst ebases) ->
  Forall (fun be => EntryOK (snd be)) ebases ->
  Zoom.zoomify_cooler (map (fun be => (fst be, as_zoom (snd be))) ebases) res cs bs = Some lv ->
  forall r zc, Zoom.lookup r lv = Some zc ->
    exists e, EntryOK e /\ zc = as_zoom e /\
      ((exists b, In (b, e) ebases) \/
       (exists b e0 k, In (b, e0) ebases /\ 2 <= k /\ r = b * k /\ Step [e0] ([e0] ++ [e]))).
Proof. exact zoom_levels_valid. Qed.
Print Assumptions C02_zoom_levels_valid.

(** C02 over histories with NO hypothesis about the producers: along every sequence of create (sorted
    stream, any chunking) / unordered create / merge / coarsen (= zoom level) operations starting from
    nothing — the rules of [Step] carry only the documented conditions on the user's input and "this is
    what the producer's model computed" — every collection written is valid, over a valid bin table *)
Theorem C02_history_valid : forall st : list entry,
  Steps [] st -> Forall EntryOK st /\ Forall (fun e => ValidCSR (snd e)) st.
Proof. intros st H. split; [exact (history_valid_all [] st (Forall_nil _) H)|exact (history_from_nothing st H)]. Qed.
Print Assumptions C02_history_valid.

(** non-vacuity *)
Example ex_C02_blocks_cross_runs :
  rlencode [0;0;1;1;1;3] (Some 2) = Some ([0;2;5], [2;3;1], [0;1;3]) /\
  rlencode [0;0;1;1;1;3] None = Some ([0;2;5], [2;3;1], [0;1;3]).
Proof. vm_compute. split; reflexivity. Qed.

(** a two-chromosome, four-bin collection with an empty row: hypotheses of create_valid hold,
    the stored indexes are the expected ones and the checker accepts it *)
Example ex_C02_create_valid :
  nondecr_b [0;0;1;1] = true /\ inrange1_b 2 [0;0;1;1] = true /\
  ssorted_b [((0,0),1);((0,2),3);((3,3),4)] = true /\
  inrange_b 4 [((0,0),1);((0,2),3);((3,3),4)] = true /\
  upper_b [((0,0),1);((0,2),3);((3,3),4)] = true /\
  option_map (fun c => (bin1_offset c, chrom_offset c, nnz c, sum c, valid_csr_b c))
             (create_model 2 [0;0;1;1] [((0,0),1);((0,2),3);((3,3),4)] true)
  = Some ([0;2;2;2;3], [0;2;4], 3, 8, true).
Proof. vm_compute. repeat split; reflexivity. Qed.

(** the checker refuses the known finding D2 (a pixel whose bin id equals nbins) although the
    index built by the loop is still the counting index (index_pixels_spec needs no upper bound) *)
Example ex_C02_out_of_range_refused :
  index_pixels [0;1;1] 2 3 = Some (offsets_of 2 [0;1;1]) /\
  valid_csr_b (mkCooler 2 1 [0;0] [0;1;1] [1;1;2] [5;6;7] [0;1;3] [0;2] 3 18 true) = false /\
  valid_csr_b (mkCooler 2 1 [0;0] [0;0;1] [0;1;1] [5;6;7] [0;2;3] [0;2] 3 18 true) = true.
Proof. vm_compute. repeat split; reflexivity. Qed.

(** an index that is off by one position, a duplicate pixel and a wrong nnz are each refused *)
Example ex_C02_checker_discriminates :
  valid_csr_b (mkCooler 2 1 [0;0] [0;0;1] [0;1;1] [5;6;7] [0;1;3] [0;2] 3 18 true) = false /\
  valid_csr_b (mkCooler 2 1 [0;0] [0;0;1] [0;0;1] [5;6;7] [0;2;3] [0;2] 3 18 true) = false /\
  valid_csr_b (mkCooler 2 1 [0;0] [0;0;1] [0;1;1] [5;6;7] [0;2;3] [0;2] 2 18 true) = false /\
  valid_csr_b (mkCooler 2 1 [0;0] [1;0;1] [1;1;1] [5;6;7] [0;1;3] [0;2] 3 18 false) = false.
Proof. vm_compute. repeat split; reflexivity. Qed.

(** a concrete history create -> unordered create -> merge -> coarsen exists (the Step rules are satisfiable),
    and its last collection holds the coarsened merged matrix *)
Example ex_C02_history :
  Steps [] [(hx_blocks, hx_c1); (hx_blocks, hx_c2); (hx_blocks, hx_c3); (map (coarsen_block 2) hx_blocks, hx_c4)] /\
  pixels_of hx_c3 = [((0,0),1); ((0,1),5); ((0,2),3); ((2,3),3); ((3,3),5)] /\
  pixels_of hx_c4 = [((0,0),6); ((0,1),3); ((1,2),3); ((2,2),5)] /\
  valid_csr_b hx_c4 = true.
Proof. exact history_example. Qed.

(** ---- tie to the source: the validator that guards every producer's write path — its per-record predicates are
    regenerated from _ingest._validate_pixels on every run and the model's validator is the cascade over them (proved in
    Proofs/GenBridgeCreate.v, restated in Props/C13.v); the surrounding statements, the chaining in create() and the fit
    check / store statements of write_pixels are pinned. *)
From Cooler Require Import Gen.Translated Proofs.GenBridgeCreate.
Theorem C02_source_pins : Gen.validate_pixels_source_pins = true /\ Gen.create_write_source_pins = true.
Proof. exact gen_validate_pins. Qed.
Print Assumptions C02_source_pins.

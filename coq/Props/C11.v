(** C11  Balancing depends on the data only, not on chunking or scheduling.
    Statements; the proofs are in Proofs/BalanceProofs.v, the span theorems being read off the chains proved there
    (balance_spans_chain, partition_chain); source tie: Proofs/GenBridgeBalance.v.  Model: Model/Balance.v (exact rationals). *)
From Cooler Require Import Model.Balance Proofs.BalanceProofs.
From Cooler Require Import Gen.Translated Proofs.GenBridgeBalance.
From Coq Require Import Permutation Setoid Morphisms.
Open Scope Z_scope.

(** the spans of balance_cooler (edges every chunksize up to nnz), read through the clamping chunk getter,
    reproduce the pixel table: every stored pixel exactly once, in order, for every chunk size >= 1 *)
Theorem C11_spans_exact_cover : forall (px : list pixel) (c : Z), 1 <= c ->
  concat (map (get_chunk px) (balance_spans (zlen px) (Some c))) = px.
Proof. exact spans_exact_cover. Qed.
Print Assumptions C11_spans_exact_cover.

Theorem C11_spans_none_cover : forall (px : list pixel),
  concat (map (get_chunk px) (balance_spans (zlen px) None)) = px.
Proof. exact spans_none_cover. Qed.
Print Assumptions C11_spans_none_cover.

(** consecutive and disjoint: the spans form a chain 0 = lo_0 <= hi_0 = lo_1 <= ... whose end is >= nnz,
    and every pixel index belongs to exactly one span *)
Theorem C11_spans_consecutive : forall nnz c, 0 <= nnz -> 1 <= c ->
  Chain 0 (balance_spans nnz (Some c)) (cdiv nnz c * c) /\ nnz <= cdiv nnz c * c.
Proof. intros nnz c Hn Hc. split; [now apply balance_spans_chain | apply BinsProofs.cdiv_bracket; lia]. Qed.
Print Assumptions C11_spans_consecutive.

Theorem C11_spans_index_once : forall nnz c k, 1 <= c -> 0 <= k < nnz ->
  exists sp, filter (in_span k) (balance_spans nnz (Some c)) = [sp].
Proof.
  intros nnz c k Hc Hk. apply (chain_exactly_one 0 _ (cdiv nnz c * c)); [apply balance_spans_chain; lia|].
  pose proof (BinsProofs.cdiv_bracket nnz c). lia.
Qed.
Print Assumptions C11_spans_index_once.

(** util.partition(plo, phi, c) (cis-only mode, and the default of parallel.split): the same for [plo, phi) *)
Theorem C11_partition_exact_cover : forall (px : list pixel) plo phi c,
  1 <= c -> 0 <= plo <= phi ->
  concat (map (get_chunk px) (partition plo phi c)) = slice px plo phi.
Proof. exact partition_exact_cover. Qed.
Print Assumptions C11_partition_exact_cover.

Theorem C11_partition_consecutive : forall plo phi c, 1 <= c -> plo <= phi ->
  Chain plo (partition plo phi c) phi.
Proof. exact partition_chain. Qed.
Print Assumptions C11_partition_consecutive.

(** explicitly: every span stays inside [plo, phi] and the last span is clipped to end exactly at phi
    (this is the min(i + step, stop) of util.partition; without it the last span would overrun phi) *)
Theorem C11_partition_clipped : forall plo phi c, 1 <= c -> plo <= phi ->
  Forall (fun s => plo <= fst s /\ fst s <= snd s /\ snd s <= phi) (partition plo phi c) /\
  (partition plo phi c <> [] -> snd (last (partition plo phi c) (0, 0)) = phi).
Proof.
  intros plo phi c Hc Hle. pose proof (partition_chain plo phi c Hc Hle) as Hch. split.
  - rewrite Forall_forall. intros [lo hi] Hin. exact (chain_in_bounds _ _ _ lo hi Hch Hin).
  - exact (BalanceProofs.chain_last _ _ _ (0, 0) Hch).
Qed.
Print Assumptions C11_partition_clipped.

Theorem C11_partition_index_once : forall plo phi c k, 1 <= c -> plo <= k < phi ->
  exists sp, filter (in_span k) (partition plo phi c) = [sp].
Proof. intros plo phi c k Hc Hk. apply (chain_exactly_one plo _ phi); [apply partition_chain; lia | lia]. Qed.
Print Assumptions C11_partition_index_once.

(** the scheduling argument, for ANY commutative monoid (up to an equivalence [eqA]):
    per-chunk results handed back in any order and folded from [init] give init + the sum over all items *)
Theorem C11_reduce_perm_invariant :
  forall (A : Type) (eqA : relation A), Equivalence eqA ->
  forall (op : A -> A -> A), Proper (eqA ==> eqA ==> eqA) op ->
  forall e : A,
  (forall x y z, eqA (op x (op y z)) (op (op x y) z)) ->
  (forall x y, eqA (op x y) (op y x)) ->
  (forall x, eqA (op e x) x) ->
  forall (P : Type) (f : P -> A) (chunks : list (list P)) (rs rs' : list A) (init : A),
    Permutation rs rs' ->
    Forall2 eqA rs' (map (fun c => msum op e (map f c)) chunks) ->
    eqA (fold_left op rs init) (op init (msum op e (map f (concat chunks)))).
Proof. intros A eqA Heq op Hop e Ha Hc Hu. exact (reduce_perm_invariant eqA op e Ha Hc Hu). Qed.
Print Assumptions C11_reduce_perm_invariant.

Theorem C11_reduce_chunking_invariant :
  forall (A : Type) (eqA : relation A), Equivalence eqA ->
  forall (op : A -> A -> A), Proper (eqA ==> eqA ==> eqA) op ->
  forall e : A,
  (forall x y z, eqA (op x (op y z)) (op (op x y) z)) ->
  (forall x y, eqA (op x y) (op y x)) ->
  (forall x, eqA (op e x) x) ->
  forall (P : Type) (f : P -> A) (ch1 ch2 : list (list P)) (rs1 rs2 : list A) (init : A),
    Permutation (concat ch1) (concat ch2) ->
    Permutation rs1 (map (fun c => msum op e (map f c)) ch1) ->
    Permutation rs2 (map (fun c => msum op e (map f c)) ch2) ->
    eqA (fold_left op rs1 init) (fold_left op rs2 init).
Proof. intros A eqA Heq op Hop e Ha Hc Hu. exact (reduce_chunking_invariant eqA op e Ha Hc Hu). Qed.
Print Assumptions C11_reduce_chunking_invariant.

(** the model's split/prepare/pipe/_marginalize/reduce pipeline is such a fold: for every covering span list
    and every completion order the reduced marginal of bin i is the sum of the per-pixel contributions *)
Theorem C11_marg_schedule_invariant : forall n spans fs (px : list pixel) rs i,
  concat (map (get_chunk px) spans) = px ->
  Permutation rs (marg_chunks n spans fs px) ->
  0 <= i < Z.of_nat n ->
  (qnth (reduce_add n rs) i == sumQ (map (pcontrib i fs) px))%Q.
Proof. intros n spans fs px. exact (marg_schedule_invariant n spans fs px px). Qed.
Print Assumptions C11_marg_schedule_invariant.

Theorem C11_marg_data_only : forall n fs (px : list pixel) c1 c2 rs1 rs2 i,
  1 <= c1 -> 1 <= c2 ->
  Permutation rs1 (marg_chunks n (balance_spans (zlen px) (Some c1)) fs px) ->
  Permutation rs2 (marg_chunks n (balance_spans (zlen px) (Some c2)) fs px) ->
  0 <= i < Z.of_nat n ->
  (qnth (reduce_add n rs1) i == qnth (reduce_add n rs2) i)%Q.
Proof. exact marg_data_only. Qed.
Print Assumptions C11_marg_data_only.

(** "coincides with the documented procedure on the dense matrix": for every chunk size the model's sweep
    marginal of bin i is b_i * sum_j F_ij b_j, F the dense symmetric completion of the filtered
    upper-triangular pixels with each diagonal pixel counted once *)
Theorem C11_sparse_eq_dense : forall n chunk fs (px : list pixel) b i,
  match chunk with Some c => 1 <= c | None => True end ->
  Forall keyfix fs -> upper_b px = true -> inrange_b (Z.of_nat n) px = true ->
  0 <= i < Z.of_nat n ->
  (qnth (margf_gw n (balance_spans (zlen px) chunk) fs px b) i == rowsum (dense (filtered fs px)) n b i)%Q.
Proof. exact margf_gw_is_rowsum. Qed.
Print Assumptions C11_sparse_eq_dense.

(** cis-only mode reads, per chromosome [lo,hi), only the pixel range [bin1_offset lo, bin1_offset hi): for the
    chromosome's own bins this gives the same sums as reading the whole table (pixels sorted by bin1, cis filter on) *)
Theorem C11_cis_range_suffices : forall o chroms (n : nat) lo hi v (px : list pixel) i,
  o_cis o = true -> BlockSep chroms n lo hi -> good_px n px = true -> rows_sorted px ->
  lo <= hi -> lo <= i < hi ->
  (sumQ (map (pcontrib i (base_filters o chroms ++ [f_times v])) (slice px (bin1_offset px lo) (bin1_offset px hi)))
   == sumQ (map (pcontrib i (base_filters o chroms ++ [f_times v])) px))%Q.
Proof. exact cis_range_suffices. Qed.
Print Assumptions C11_cis_range_suffices.

(** no state leaks between chunks: the per-chunk pipeline is a per-pixel map of the chunk *)
Theorem C11_pipeline_local : forall fs (c1 c2 : list pixel),
  pipe fs (init (c1 ++ c2)) = pipe fs (init c1) ++ pipe fs (init c2).
Proof. exact pipeline_local. Qed.
Print Assumptions C11_pipeline_local.

(** non-vacuity *)
Example ex_C11_spans :
  balance_spans 7 (Some 3) = [(0,3); (3,6); (6,9)] /\ balance_spans 6 (Some 3) = [(0,3); (3,6)] /\
  balance_spans 0 (Some 3) = [] /\ balance_spans 2 (Some 5) = [(0,5)] /\
  partition 2 9 3 = [(2,5); (5,8); (8,9)] /\ partition 4 4 3 = [].
Proof. vm_compute. repeat split; reflexivity. Qed.

Example ex_C11_chunked_marginals :
  let px := [(0,0,2); (0,1,3); (1,1,4); (1,2,5)] in
  map Qred (marg_of 3 (balance_spans 4 (Some 3)) [f_zero_diags 1] px) = [3#1; 8#1; 5#1]%Q /\
  map Qred (reduce_add 3 (rev (marg_chunks 3 (balance_spans 4 (Some 1)) [f_zero_diags 1] px))) = [3#1; 8#1; 5#1]%Q.
Proof. vm_compute. split; reflexivity. Qed.

(** tie by translation: util.partition as regenerated from /repo's source on this run (coq/Gen/Translated.v, written by
    tools/py2v.py) is the model's partition; the statements that compute the chunk spans of balance_cooler and of the
    cis-only loop are pinned *)
Theorem C11_source_partition_is_model : forall start stop step,
  Gen.partition start stop step = partition start stop step.
Proof. exact gen_partition. Qed.
Print Assumptions C11_source_partition_is_model.
Theorem C11_source_span_pins : Gen.balance_span_pins = true.
Proof. exact gen_balance_span_pins. Qed.
Print Assumptions C11_source_span_pins.

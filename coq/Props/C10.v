(** C10  Balancing weights flatten the marginals of the filtered matrix; NaN exactly on the filtered bins.
    Statements; the proofs are in Proofs/BalanceProofs.v, the per-mode theorems being the general ones there
    (nan_set, loop_flatness) applied to the mode's marginal function (gw_margof, trans_margof, cis_margof); the theorems about
    what is read back are in Proofs/BalanceIntegration.v, the source tie in Proofs/GenBridgeBalance.v.
    Model: Model/Balance.v over exact rationals Q
    (floating point is not modelled; no square roots: the rescaled weights are "any w >= 0 with w_i^2 * scale = b_i^2").
    Notation: F = Fmat fs px is the dense symmetric completion of the filtered upper-triangular pixel table
    (diagonal once); rowsum F n b i = b_i * sum_j F_ij b_j is the i-th row sum of diag(b) F diag(b). *)
From Cooler Require Import Model.Query Model.Balanced Proofs.QueryProofs Proofs.QueryMain Proofs.BalancedProofs.
From Cooler Require Import Model.Balance Proofs.BalanceProofs Proofs.BalanceIntegration.
Open Scope Z_scope.

(** C10.1  sparse marginal = dense row sum (true only because a diagonal pixel is counted once, repair D11) *)
Theorem C10_marg_is_rowsum : forall n b (l : list wpx) i,
  UpperIn n l -> 0 <= i < Z.of_nat n ->
  (marg_at i (map (f_times b) l) == rowsum (dense l) n b i)%Q.
Proof. exact marg_is_rowsum. Qed.
Print Assumptions C10_marg_is_rowsum.

Theorem C10_sweep_marginal_is_rowsum : forall n chunk fs (px : list pixel) b i,
  chunk_ok chunk -> Forall keyfix fs -> upper_b px = true -> inrange_b (Z.of_nat n) px = true ->
  0 <= i < Z.of_nat n ->
  (qnth (margf_gw n (balance_spans (zlen px) chunk) fs px b) i == rowsum (Fmat fs px) n b i)%Q.
Proof. exact margf_gw_is_rowsum. Qed.
Print Assumptions C10_sweep_marginal_is_rowsum.

(** C10.2  one sweep: a zero weight stays zero, a positive weight stays positive *)
Theorem C10_zero_stays_zero : forall (m b b' : list Q) (var mu : Q) (i : Z),
  ic_update m b = Some (b', var, mu) -> length m = length b ->
  (qnth b i == 0)%Q -> (qnth b' i == 0)%Q.
Proof. exact zero_stays_zero. Qed.
Print Assumptions C10_zero_stays_zero.

Theorem C10_positive_stays_positive : forall (F : Z -> Z -> Q) (n : nat),
  (forall i j, (0 <= F i j)%Q) ->
  forall (m b b' : list Q) (var mu : Q) (i : Z),
  MargOf F n m b -> NonNeg b -> length b = n ->
  ic_update m b = Some (b', var, mu) -> InR n i ->
  (0 < qnth b i)%Q -> (0 < qnth b' i)%Q.
Proof. exact positive_stays_positive. Qed.
Print Assumptions C10_positive_stays_positive.

(** hence the NaN-set characterisation for the whole loop (any iteration budget), genome-wide mode of the model:
    a bin is NaN iff its entering weight is 0 (= masked by a bin filter, see C10_mask_rules) or no bin of the
    problem has a non-zero marginal; every other bin carries a positive weight *)
Theorem C10_gw_nan_set : forall (n : nat) (chunk : option Z) (fs : list (wpx -> wpx)) (px : list pixel),
  chunk_ok chunk -> good_px n px = true -> Forall keyfix fs -> Forall datnn fs ->
  forall tol fuel b bb s v k i,
  length b = n -> NonNeg b ->
  ic_loop (margf_gw n (balance_spans (zlen px) chunk) fs px) tol fuel b = Some (bb, s, v, k) -> InR n i ->
  (onth (mark_nan s bb) i = None <-> AllZero (Fmat fs px) n b \/ (qnth b i == 0)%Q) /\
  (forall x, onth (mark_nan s bb) i = Some x -> (0 < x)%Q /\ x = qnth bb i).
Proof.
  intros n chunk fs px Hc Hg Hk Hd.
  exact (nan_set _ n (Fmat_nonneg n fs px Hd Hg) _ (gw_margof n chunk fs px Hc Hg Hk)).
Qed.
Print Assumptions C10_gw_nan_set.

Theorem C10_trans_nan_set : forall (n : nat) (chunk : option Z) (fs : list (wpx -> wpx)) (chroms offsets : list Z) (px : list pixel),
  chunk_ok chunk -> good_px n px = true -> Forall keyfix fs -> Forall datnn fs ->
  length (cweights n offsets) = n -> (forall i, (0 <= qnth (cweights n offsets) i)%Q) ->
  forall tol fuel b bb s v k i,
  length b = n -> NonNeg b ->
  ic_loop (margf_trans n (balance_spans (zlen px) chunk) fs chroms offsets px) tol fuel b = Some (bb, s, v, k) -> InR n i ->
  (onth (mark_nan s bb) i = None <->
     AllZero (Gmat (cweights n offsets) (Fmat (fs ++ [f_zero_cis chroms]) px)) n b \/ (qnth b i == 0)%Q) /\
  (forall x, onth (mark_nan s bb) i = Some x -> (0 < x)%Q /\ x = qnth bb i).
Proof.
  intros n chunk fs chroms offsets px Hc Hg Hk Hd Hcwl Hcwp.
  exact (nan_set _ n (Gmat_nonneg _ _ Hcwp (trans_T_nonneg n fs chroms px Hd Hg)) _
           (trans_margof n chunk fs chroms offsets px Hc Hg Hk Hcwl)).
Qed.
Print Assumptions C10_trans_nan_set.

(** the same for any matrix and any marginal function that agrees with its row sums (used per chromosome) *)
Theorem C10_nan_set : forall (F : Z -> Z -> Q) (n : nat),
  (forall i j, (0 <= F i j)%Q) ->
  forall margf : list Q -> list Q,
  (forall b, length b = n -> MargOf F n (margf b) b) ->
  forall tol fuel b bb s v k i,
  length b = n -> NonNeg b -> ic_loop margf tol fuel b = Some (bb, s, v, k) -> InR n i ->
  (onth (mark_nan s bb) i = None <-> AllZero F n b \/ (qnth b i == 0)%Q) /\
  (forall x, onth (mark_nan s bb) i = Some x -> (0 < x)%Q /\ x = qnth bb i).
Proof. exact nan_set. Qed.
Print Assumptions C10_nan_set.

(** C10.3  mask rules: a bin enters the loop with weight 0 iff its initial weight is zero/NaN, or
    min_nnz > 0 and its number of non-zero filtered entries is < min_nnz, or min_count <> 0 and its filtered
    marginal is < min_count, or mad_max > 0 and its per-chromosome-normalised marginal is below the MAD cutoff
    (exact multiplicative 4th-power form), or it is blacklisted *)
Theorem C10_mask_rules : forall (o : opts) (n : nat) (chroms offsets : list Z) (px : list pixel),
  length (x0_bias n (o_x0 o)) = n ->
  length (norm_marg (marg_of n (balance_spans (zlen px) (o_chunk o)) (base_filters o chroms) px) offsets) = n ->
  forall i, InR n i ->
  ((qnth (initial_bias o n chroms offsets px) i == 0)%Q <->
     (qnth (x0_bias n (o_x0 o)) i == 0)%Q \/ masked_nnz o n chroms px i \/ masked_count o n chroms px i \/
     masked_mad o n chroms offsets px i \/ In i (o_black o)).
Proof. exact mask_rules. Qed.
Print Assumptions C10_mask_rules.

(** the whole genome-wide run of the model (masks, loop with any iteration budget, NaN marking): a bin is NaN
    iff it is excluded by one of the documented filters or the matrix has no remaining data; all others positive *)
Theorem C10_balance_gw_nan_set : forall o n chroms offsets px rs,
  o_cis o = false -> o_trans o = false -> chunk_ok (o_chunk o) -> good_px n px = true ->
  length (x0_bias n (o_x0 o)) = n -> NonNeg (x0_bias n (o_x0 o)) ->
  Chain 0 (combine (removelast offsets) (tl offsets)) (Z.of_nat n) ->
  balance o n chroms offsets px = Some rs ->
  exists r, rs = [r] /\
    forall i, InR n i ->
      (onth (c_bias r) i = None <->
         AllZero (Fmat (base_filters o chroms) px) n (initial_bias o n chroms offsets px) \/
         (qnth (x0_bias n (o_x0 o)) i == 0)%Q \/ masked_nnz o n chroms px i \/
         masked_count o n chroms px i \/ masked_mad o n chroms offsets px i \/ In i (o_black o)) /\
      (forall x, onth (c_bias r) i = Some x -> (0 < x)%Q).
Proof. exact balance_gw_nan_set. Qed.
Print Assumptions C10_balance_gw_nan_set.

(** C10.4  flatness bound, one sweep: if the sweep on marginals m (mean mu over the N non-zero ones) passes
    var < tol, then for every eps in [0,1) with N*tol <= eps^2*mu^2 the RETURNED weights b' (one update ahead)
    give row sums in [mu/(1+eps), mu/(1-eps)] on every bin with a non-zero marginal *)
Theorem C10_flatness_bound : forall (F : Z -> Z -> Q) (n : nat),
  (forall i j, (F i j == F j i)%Q) -> (forall i j, (0 <= F i j)%Q) ->
  forall (m b b' : list Q) (var mu tol eps : Q) (i : Z),
  MargOf F n m b -> NonNeg b -> length b = n ->
  ic_update m b = Some (b', var, mu) ->
  (var < tol)%Q -> (0 <= eps)%Q -> (eps < 1)%Q ->
  (qlen (nzs m) * tol <= eps * eps * mu * mu)%Q ->
  InR n i -> ~ (qnth m i == 0)%Q ->
  (mu / (1 + eps) <= rowsum F n b' i /\ rowsum F n b' i <= mu / (1 - eps))%Q.
Proof. exact flatness_bound. Qed.
Print Assumptions C10_flatness_bound.

(** ... for the loop of the model in genome-wide mode (N = number of retained bins with data, a function of the
    entering weights b), unrescaled and rescaled *)
Theorem C10_gw_flatness : forall (n : nat) (chunk : option Z) (fs : list (wpx -> wpx)) (px : list pixel),
  chunk_ok chunk -> good_px n px = true -> Forall keyfix fs -> Forall datnn fs ->
  forall tol fuel b bb mu v k eps i,
  length b = n -> NonNeg b ->
  ic_loop (margf_gw n (balance_spans (zlen px) chunk) fs px) tol fuel b = Some (bb, Some mu, v, k) ->
  (v < tol)%Q -> (0 <= eps)%Q -> (eps < 1)%Q ->
  (nnz_rows (Fmat fs px) n b * tol <= eps * eps * mu * mu)%Q ->
  InR n i -> ~ (rowsum (Fmat fs px) n b i == 0)%Q ->
  (mu / (1 + eps) <= rowsum (Fmat fs px) n bb i /\ rowsum (Fmat fs px) n bb i <= mu / (1 - eps))%Q.
Proof.
  intros n chunk fs px Hc Hg Hk Hd.
  exact (loop_flatness _ n (Fmat_sym fs px) (Fmat_nonneg n fs px Hd Hg) _ (gw_margof n chunk fs px Hc Hg Hk)).
Qed.
Print Assumptions C10_gw_flatness.

Theorem C10_gw_flatness_rescaled : forall (n : nat) (chunk : option Z) (fs : list (wpx -> wpx)) (px : list pixel),
  chunk_ok chunk -> good_px n px = true -> Forall keyfix fs -> Forall datnn fs ->
  forall tol fuel b bb mu v k eps i (w : list Q),
  length b = n -> NonNeg b ->
  ic_loop (margf_gw n (balance_spans (zlen px) chunk) fs px) tol fuel b = Some (bb, Some mu, v, k) ->
  (v < tol)%Q -> (0 <= eps)%Q -> (eps < 1)%Q ->
  (nnz_rows (Fmat fs px) n b * tol <= eps * eps * mu * mu)%Q ->
  (forall j, (0 <= qnth w j)%Q /\ (qnth w j * qnth w j * mu == qnth bb j * qnth bb j)%Q) ->
  InR n i -> ~ (rowsum (Fmat fs px) n b i == 0)%Q ->
  (1 / (1 + eps) <= rowsum (Fmat fs px) n w i /\ rowsum (Fmat fs px) n w i <= 1 / (1 - eps))%Q.
Proof.
  intros n chunk fs px Hc Hg Hk Hd.
  exact (loop_flatness_rescaled _ n (Fmat_sym fs px) (Fmat_nonneg n fs px Hd Hg) _ (gw_margof n chunk fs px Hc Hg Hk)).
Qed.
Print Assumptions C10_gw_flatness_rescaled.

(** ... for any matrix / marginal function (per chromosome in cis-only mode) *)
Theorem C10_loop_flatness : forall (F : Z -> Z -> Q) (n : nat),
  (forall i j, (F i j == F j i)%Q) -> (forall i j, (0 <= F i j)%Q) ->
  forall margf : list Q -> list Q,
  (forall b, length b = n -> MargOf F n (margf b) b) ->
  forall tol fuel b bb mu v k eps i,
  length b = n -> NonNeg b ->
  ic_loop margf tol fuel b = Some (bb, Some mu, v, k) -> (v < tol)%Q ->
  (0 <= eps)%Q -> (eps < 1)%Q -> (nnz_rows F n b * tol <= eps * eps * mu * mu)%Q ->
  InR n i -> ~ (rowsum F n b i == 0)%Q ->
  (mu / (1 + eps) <= rowsum F n bb i /\ rowsum F n bb i <= mu / (1 - eps))%Q.
Proof. exact loop_flatness. Qed.
Print Assumptions C10_loop_flatness.

(** cis-only mode, one chromosome [lo, hi) (BlockSep: the bins of [lo,hi) share no chromosome id with any other bin;
    rows_sorted: pixels sorted by bin1, as in every cooler): the marginal function of the model, which reads only the
    pixel range [bin1_offset lo, bin1_offset hi) in chunks of c, agrees with the row sums of the chromosome's own
    sub-matrix Fc(a,b) = F(lo+a, lo+b), whatever the weights of the other chromosomes are *)
Theorem C10_cis_margof : forall o chroms (n : nat) c lo hi (px : list pixel) (full : list Q),
  o_cis o = true -> 1 <= c -> BlockSep chroms n lo hi -> good_px n px = true -> rows_sorted px ->
  0 <= lo -> lo <= hi -> hi <= Z.of_nat n -> length full = n ->
  forall seg, length seg = Z.to_nat (hi - lo) ->
    MargOf (fun a b => Fmat (base_filters o chroms) px (lo + a) (lo + b)) (Z.to_nat (hi - lo))
           (margf_cis n c (base_filters o chroms) px full lo hi seg) seg.
Proof. exact cis_margof. Qed.
Print Assumptions C10_cis_margof.

(** ... hence NaN set and flatness hold per chromosome on intra-chromosomal data *)
Theorem C10_cis_nan_set : forall (o : opts) (chroms : list Z) (n : nat) (c lo hi : Z) (px : list pixel),
  o_cis o = true -> 1 <= c -> BlockSep chroms n lo hi -> good_px n px = true -> rows_sorted px ->
  0 <= lo -> lo <= hi -> hi <= Z.of_nat n ->
  forall full tol fuel seg bb s v k i,
  length full = n -> length seg = Z.to_nat (hi - lo) -> NonNeg seg ->
  ic_loop (margf_cis n c (base_filters o chroms) px full lo hi) tol fuel seg = Some (bb, s, v, k) ->
  InR (Z.to_nat (hi - lo)) i ->
  (onth (mark_nan s bb) i = None <->
     AllZero (fun a b => Fmat (base_filters o chroms) px (lo + a) (lo + b)) (Z.to_nat (hi - lo)) seg \/ (qnth seg i == 0)%Q) /\
  (forall x, onth (mark_nan s bb) i = Some x -> (0 < x)%Q /\ x = qnth bb i).
Proof.
  intros o chroms n c lo hi px Hcis Hc Hsep Hg Hs H0 H1 H2 full tol fuel seg bb s v k i Hlf.
  exact (nan_set _ _ (fun a b => Fmat_nonneg n _ px (datnn_base_filters o chroms) Hg (lo + a) (lo + b)) _
           (cis_margof o chroms n c lo hi px full Hcis Hc Hsep Hg Hs H0 H1 H2 Hlf) tol fuel seg bb s v k i).
Qed.
Print Assumptions C10_cis_nan_set.

Theorem C10_cis_flatness : forall (o : opts) (chroms : list Z) (n : nat) (c lo hi : Z) (px : list pixel),
  o_cis o = true -> 1 <= c -> BlockSep chroms n lo hi -> good_px n px = true -> rows_sorted px ->
  0 <= lo -> lo <= hi -> hi <= Z.of_nat n ->
  forall full tol fuel seg bb mu v k eps i,
  length full = n -> length seg = Z.to_nat (hi - lo) -> NonNeg seg ->
  ic_loop (margf_cis n c (base_filters o chroms) px full lo hi) tol fuel seg = Some (bb, Some mu, v, k) ->
  (v < tol)%Q -> (0 <= eps)%Q -> (eps < 1)%Q ->
  (nnz_rows (fun a b => Fmat (base_filters o chroms) px (lo + a) (lo + b)) (Z.to_nat (hi - lo)) seg * tol <= eps * eps * mu * mu)%Q ->
  InR (Z.to_nat (hi - lo)) i ->
  ~ (rowsum (fun a b => Fmat (base_filters o chroms) px (lo + a) (lo + b)) (Z.to_nat (hi - lo)) seg i == 0)%Q ->
  (mu / (1 + eps) <= rowsum (fun a b => Fmat (base_filters o chroms) px (lo + a) (lo + b)) (Z.to_nat (hi - lo)) bb i /\
   rowsum (fun a b => Fmat (base_filters o chroms) px (lo + a) (lo + b)) (Z.to_nat (hi - lo)) bb i <= mu / (1 - eps))%Q.
Proof.
  intros o chroms n c lo hi px Hcis Hc Hsep Hg Hs H0 H1 H2 full tol fuel seg bb mu v k eps i Hlf.
  exact (loop_flatness _ _ (fun a b => Fmat_sym _ px (lo + a) (lo + b))
           (fun a b => Fmat_nonneg n _ px (datnn_base_filters o chroms) Hg (lo + a) (lo + b)) _
           (cis_margof o chroms n c lo hi px full Hcis Hc Hsep Hg Hs H0 H1 H2 Hlf) tol fuel seg bb mu v k eps i).
Qed.
Print Assumptions C10_cis_flatness.

Theorem C10_cis_flatness_rescaled : forall (o : opts) (chroms : list Z) (n : nat) (c lo hi : Z) (px : list pixel),
  o_cis o = true -> 1 <= c -> BlockSep chroms n lo hi -> good_px n px = true -> rows_sorted px ->
  0 <= lo -> lo <= hi -> hi <= Z.of_nat n ->
  forall full tol fuel seg bb mu v k eps i (w : list Q),
  length full = n -> length seg = Z.to_nat (hi - lo) -> NonNeg seg ->
  ic_loop (margf_cis n c (base_filters o chroms) px full lo hi) tol fuel seg = Some (bb, Some mu, v, k) ->
  (v < tol)%Q -> (0 <= eps)%Q -> (eps < 1)%Q ->
  (nnz_rows (fun a b => Fmat (base_filters o chroms) px (lo + a) (lo + b)) (Z.to_nat (hi - lo)) seg * tol <= eps * eps * mu * mu)%Q ->
  (forall j, (0 <= qnth w j)%Q /\ (qnth w j * qnth w j * mu == qnth bb j * qnth bb j)%Q) ->
  InR (Z.to_nat (hi - lo)) i ->
  ~ (rowsum (fun a b => Fmat (base_filters o chroms) px (lo + a) (lo + b)) (Z.to_nat (hi - lo)) seg i == 0)%Q ->
  (1 / (1 + eps) <= rowsum (fun a b => Fmat (base_filters o chroms) px (lo + a) (lo + b)) (Z.to_nat (hi - lo)) w i /\
   rowsum (fun a b => Fmat (base_filters o chroms) px (lo + a) (lo + b)) (Z.to_nat (hi - lo)) w i <= 1 / (1 - eps))%Q.
Proof.
  intros o chroms n c lo hi px Hcis Hc Hsep Hg Hs H0 H1 H2 full tol fuel seg bb mu v k eps i w Hlf.
  exact (loop_flatness_rescaled _ _ (fun a b => Fmat_sym _ px (lo + a) (lo + b))
           (fun a b => Fmat_nonneg n _ px (datnn_base_filters o chroms) Hg (lo + a) (lo + b)) _
           (cis_margof o chroms n c lo hi px full Hcis Hc Hsep Hg Hs H0 H1 H2 Hlf) tol fuel seg bb mu v k eps i w).
Qed.
Print Assumptions C10_cis_flatness_rescaled.

(** the sequential cis driver: each reported chromosome is the outcome of that chromosome's loop *)
Theorem C10_cis_loop_spec : forall o (n : nat) c bf px ranges full rs,
  length full = n ->
  Forall (fun lohi => 0 <= fst lohi /\ fst lohi <= snd lohi /\ snd lohi <= Z.of_nat n) ranges ->
  (forall lo hi full' seg, length full' = n -> length seg = Z.to_nat (hi - lo) -> In (lo, hi) ranges ->
      length (margf_cis n c bf px full' lo hi seg) = Z.to_nat (hi - lo)) ->
  cis_loop o n c bf px full ranges = Some rs ->
  Forall2 (fun lohi r => exists full' bb s v k,
             length full' = n /\
             ic_loop (margf_cis n c bf px full' (fst lohi) (snd lohi)) (o_tol o) (o_iters o)
                     (slice full' (fst lohi) (snd lohi)) = Some (bb, s, v, k) /\
             c_bias r = mark_nan s bb /\ c_scale r = s /\ c_var r = v /\ c_iters r = k) ranges rs.
Proof. exact cis_loop_spec. Qed.
Print Assumptions C10_cis_loop_spec.

(** C10.5  trans-only: the bound holds for the weights b_i * cweight_i on the cis-zeroed matrix T ... *)
Theorem C10_trans_flatness : forall (n : nat) (chunk : option Z) (fs : list (wpx -> wpx)) (chroms offsets : list Z) (px : list pixel),
  chunk_ok chunk -> good_px n px = true -> Forall keyfix fs -> Forall datnn fs ->
  length (cweights n offsets) = n -> (forall i, (0 <= qnth (cweights n offsets) i)%Q) ->
  forall tol fuel b bb mu v k eps i,
  length b = n -> NonNeg b ->
  ic_loop (margf_trans n (balance_spans (zlen px) chunk) fs chroms offsets px) tol fuel b = Some (bb, Some mu, v, k) ->
  (v < tol)%Q -> (0 <= eps)%Q -> (eps < 1)%Q ->
  (nnz_rows (Gmat (cweights n offsets) (Fmat (fs ++ [f_zero_cis chroms]) px)) n b * tol <= eps * eps * mu * mu)%Q ->
  InR n i -> ~ (rowsum (Gmat (cweights n offsets) (Fmat (fs ++ [f_zero_cis chroms]) px)) n b i == 0)%Q ->
  (mu / (1 + eps) <= rowsum (Fmat (fs ++ [f_zero_cis chroms]) px) n (vmul bb (cweights n offsets)) i /\
   rowsum (Fmat (fs ++ [f_zero_cis chroms]) px) n (vmul bb (cweights n offsets)) i <= mu / (1 - eps))%Q.
Proof.
  intros n chunk fs chroms offsets px Hc Hg Hk Hd Hcwl Hcwp tol fuel b bb mu v k eps i Hl Hb H.
  pose proof (Gmat_nonneg _ _ Hcwp (trans_T_nonneg n fs chroms px Hd Hg)) as HG.
  pose proof (trans_margof n chunk fs chroms offsets px Hc Hg Hk Hcwl) as Hspec.
  (* row sums of G under bb are the row sums of T under bb * cweights *)
  destruct (loop_inv _ n HG _ Hspec tol fuel b bb (Some mu) v k Hl Hb H) as [L _].
  rewrite (rowsum_vmul _ n bb (cweights n offsets) i) by congruence.
  exact (loop_flatness _ n (Gmat_sym _ _ (Fmat_sym _ px)) HG _ Hspec tol fuel b bb mu v k eps i Hl Hb H).
Qed.
Print Assumptions C10_trans_flatness.

(** ... and is FALSE for the returned weights alone when chromosomes differ in bin count (known finding D15,
    signature trans-only-unequal-chrom-bins-rowsum): chromosomes of 1/2/2 bins, tol = 1/100; the run converges,
    eps = 1/40 is admissible, yet two trans row sums differ by more than the factor (1+eps)/(1-eps) *)
Theorem C10_trans_rowsum_refuted :
  exists bb mu v k eps i j,
    ic_loop (margf_trans 5 (balance_spans 8 None) [] d15_chroms d15_offsets d15_px) (1#100) 10 (repeat 1%Q 5)
      = Some (bb, Some mu, v, k) /\
    (v < 1#100)%Q /\ (0 <= eps)%Q /\ (eps < 1)%Q /\
    (nnz_rows (Gmat (cweights 5 d15_offsets) d15_T) 5 (repeat 1%Q 5) * (1#100) <= eps * eps * mu * mu)%Q /\
    InR 5 i /\ InR 5 j /\
    ((1 + eps) / (1 - eps) * rowsum d15_T 5 bb j < rowsum d15_T 5 bb i)%Q.
Proof. exact trans_rowsum_refuted. Qed.
Print Assumptions C10_trans_rowsum_refuted.

(** the whole cis-only run of the model (masks, per-chromosome loops in sequence, NaN marking): for every chromosome
    [lo,hi) and every bin i of it, NaN iff excluded by a documented filter or the chromosome has no remaining
    intra-chromosomal data; all other weights positive.  ranges = consecutive chromosome bin ranges tiling [0,n);
    BlockSep: the bins of a chromosome share their chromosome id with no other bin; rows_sorted: pixels sorted by bin1 *)
Theorem C10_balance_cis_nan_set : forall o n chroms offsets px rs,
  o_cis o = true -> chunk_ok (o_chunk o) -> good_px n px = true -> rows_sorted px ->
  length (x0_bias n (o_x0 o)) = n -> NonNeg (x0_bias n (o_x0 o)) ->
  Chain 0 (combine (removelast offsets) (tl offsets)) (Z.of_nat n) ->
  (forall lo hi, In (lo, hi) (combine (removelast offsets) (tl offsets)) -> BlockSep chroms n lo hi) ->
  balance o n chroms offsets px = Some rs ->
  Forall2 (fun lohi r =>
     forall i, fst lohi <= i < snd lohi ->
       (onth (c_bias r) (i - fst lohi) = None <->
          AllZero (fun a b => Fmat (base_filters o chroms) px (fst lohi + a) (fst lohi + b)) (Z.to_nat (snd lohi - fst lohi))
                  (slice (initial_bias o n chroms offsets px) (fst lohi) (snd lohi)) \/
          (qnth (x0_bias n (o_x0 o)) i == 0)%Q \/ masked_nnz o n chroms px i \/ masked_count o n chroms px i \/
          masked_mad o n chroms offsets px i \/ In i (o_black o)) /\
       (forall x, onth (c_bias r) (i - fst lohi) = Some x -> (0 < x)%Q))
    (combine (removelast offsets) (tl offsets)) rs.
Proof. exact balance_cis_nan_set. Qed.
Print Assumptions C10_balance_cis_nan_set.

(** C10 + C12 + C03: what a user reads back after balancing is flat.
    [epx, off] is a schema-valid symmetric-upper collection; balancing ran genome-wide with ignore_diags = 0 (no data
    filter, fs = []: the read below is of the UNFILTERED matrix) from entering weights b (zero on masked bins) and
    stopped with var < tol; the stored column w holds the rescaled weights (StoredWeights: w_j >= 0,
    w_j^2 * scale = b_j^2, NaN where the final weight is 0; NaN reads as 0 in a sum).  Then the dense balanced read
    matrix(balance=True) of the whole matrix (multiplicative weights) exists, and the nan-sum of every row of a
    retained bin with data lies in [1/(1+eps), 1/(1-eps)]; rows of masked bins are all NaN (C10_balanced_read_rowsum). *)
Theorem C10_balanced_read_flat : forall n epx off cs cols balance dw name w chunk tol fuel b bb mu v k eps,
  ValidCSR n epx off -> Upper epx -> 1 <= cs -> zlen w = n ->
  weight_name balance = Some name -> lookup_weights cols name = Some w ->
  effective_divisive balance dw = false ->
  chunk_ok chunk -> good_px (Z.to_nat n) (map snd epx) = true ->
  length b = Z.to_nat n -> NonNeg b ->
  ic_loop (margf_gw (Z.to_nat n) (balance_spans (zlen (map snd epx)) chunk) [] (map snd epx)) tol fuel b = Some (bb, Some mu, v, k) ->
  (v < tol)%Q -> (0 <= eps)%Q -> (eps < 1)%Q ->
  (nnz_rows (Fmat [] (map snd epx)) (Z.to_nat n) b * tol <= eps * eps * mu * mu)%Q ->
  StoredWeights w bb mu ->
  exists D, matrix_balanced epx off cs true Dense cols balance dw (0, n, 0, n) = Some (BDense D) /\
    forall a, 0 <= a < n -> ~ (rowsum (Fmat [] (map snd epx)) (Z.to_nat n) b a == 0)%Q ->
      (1 / (1 + eps) <= row_nansum D a (Z.to_nat n) /\ row_nansum D a (Z.to_nat n) <= 1 / (1 - eps))%Q.
Proof. exact (balanced_read_flat_masked [] (fun _ _ => false) (Forall_nil _) (Forall_nil _) Fmat_nil_symm). Qed.
Print Assumptions C10_balanced_read_flat.

(** the read itself: for ANY stored weight column (NaN = masked) the nan-sum of row a of the balanced dense read is the
    a-th row sum of diag(w) S diag(w), S = symmetric completion of the stored table; a masked row is all NaN *)
Theorem C10_balanced_read_rowsum : forall n epx off cs cols balance dw name w,
  ValidCSR n epx off -> Upper epx -> 1 <= cs -> zlen w = n ->
  weight_name balance = Some name -> lookup_weights cols name = Some w ->
  effective_divisive balance dw = false ->
  exists D, matrix_balanced epx off cs true Dense cols balance dw (0, n, 0, n) = Some (BDense D) /\
    forall a, 0 <= a < n ->
      (row_nansum D a (Z.to_nat n) == rowsum (Fmat [] (map snd epx)) (Z.to_nat n) (wq w) a)%Q /\
      (wnth w a = None -> forall b, 0 <= b < n -> nth (Z.to_nat b) (nth (Z.to_nat a) D []) None = None).
Proof. exact (balanced_read_masked [] (fun _ _ => false) Fmat_nil_symm). Qed.
Print Assumptions C10_balanced_read_rowsum.

(** with ignore_diags = d > 0 the loop equalises the matrix without its first d diagonals: the flat quantity of the
    (unfiltered) read is the nan-sum over the cells with |a - b| >= d *)
Theorem C10_balanced_read_flat_diags : forall n epx off cs cols balance dw name w chunk d tol fuel b bb mu v k eps,
  ValidCSR n epx off -> Upper epx -> 1 <= cs -> zlen w = n ->
  weight_name balance = Some name -> lookup_weights cols name = Some w ->
  effective_divisive balance dw = false ->
  chunk_ok chunk -> good_px (Z.to_nat n) (map snd epx) = true ->
  length b = Z.to_nat n -> NonNeg b ->
  ic_loop (margf_gw (Z.to_nat n) (balance_spans (zlen (map snd epx)) chunk) [f_zero_diags d] (map snd epx)) tol fuel b = Some (bb, Some mu, v, k) ->
  (v < tol)%Q -> (0 <= eps)%Q -> (eps < 1)%Q ->
  (nnz_rows (Fmat [f_zero_diags d] (map snd epx)) (Z.to_nat n) b * tol <= eps * eps * mu * mu)%Q ->
  StoredWeights w bb mu ->
  exists D, matrix_balanced epx off cs true Dense cols balance dw (0, n, 0, n) = Some (BDense D) /\
    forall a, 0 <= a < n -> ~ (rowsum (Fmat [f_zero_diags d] (map snd epx)) (Z.to_nat n) b a == 0)%Q ->
      (1 / (1 + eps) <= row_nansum_off D a (Z.to_nat n) d /\ row_nansum_off D a (Z.to_nat n) d <= 1 / (1 - eps))%Q.
Proof.
  intros n epx off cs cols balance dw name w chunk d.
  exact (balanced_read_flat_masked [f_zero_diags d] _ (Forall_cons _ (keyfix_zero_diags d) (Forall_nil _))
           (Forall_cons _ (datnn_zero_diags d) (Forall_nil _)) (Fmat_diags_symm d) n epx off cs cols balance dw name w chunk).
Qed.
Print Assumptions C10_balanced_read_flat_diags.

(** non-vacuity: a concrete genome-wide run of the model (4 bins, non-zero diagonal, ignore_diags = 0) satisfies
    the hypotheses of C10_gw_flatness with eps = 1/5, and a masked bin stays NaN *)
Example ex_C10_run :
  let px := [(0,0,5); (0,1,3); (0,2,2); (1,1,7); (1,2,1); (1,3,4); (2,2,2); (2,3,6); (3,3,1)] in
  good_px 4 px = true /\
  exists bb mu v k,
    ic_loop (margf_gw 4 (balance_spans 9 (Some 4)) [] px) (1#10) 20 [1; 1; 1; 1]%Q = Some (bb, Some mu, v, k) /\
    Qltb v (1#10) = true /\
    Qle_bool (nnz_rows (Fmat [] px) 4 [1; 1; 1; 1]%Q * (1#10)) ((1#5) * (1#5) * mu * mu) = true /\
    negb (qz (rowsum (Fmat [] px) 4 [1; 1; 1; 1]%Q 2)) = true.
Proof.
  intros px. split; [reflexivity|]. set (run := ic_loop _ _ _ _).
  eassert (H : run = _ /\ _) by (apply ic_run_spec; vm_compute; reflexivity). destruct H as [H T].
  do 4 eexists. split; [exact H|]. split; [exact T|]. split; vm_compute; reflexivity.
Qed.

Example ex_C10_masked_stays_nan :
  let px := [(0,1,3); (0,2,2); (1,2,1); (1,3,4); (2,3,6)] in
  exists bb s v k,
    ic_loop (margf_gw 4 (balance_spans 5 None) [f_zero_diags 1] px) (1#10) 20 [1; 0; 1; 1]%Q = Some (bb, s, v, k) /\
    map (option_map Qred) (mark_nan s bb) <> [] /\ onth (mark_nan s bb) 1 = None /\ onth (mark_nan s bb) 0 <> None.
Proof.
  do 4 eexists. split; [eapply proj1, ic_run_spec; vm_compute; reflexivity|].
  split; [discriminate | split; [reflexivity | vm_compute; discriminate]].
Qed.

(** non-vacuity of the cis-only hypotheses: two chromosomes of 2 and 3 bins, second chromosome [2,5) *)
Example ex_C10_cis_hyps :
  let px := [(0,0,2); (0,1,3); (0,3,4); (1,1,1); (1,2,6); (1,4,2); (2,2,3); (2,3,5); (2,4,1); (3,4,7); (4,4,2)] in
  let chroms := [0; 0; 1; 1; 1] in
  BlockSep chroms 5 2 5 /\ good_px 5 px = true /\ rows_sorted px /\
  exists bb mu v k,
    ic_loop (margf_cis 5 3 (base_filters (Build_opts true false 0 0 0 0 [] (1#10) 20 (Some 3) None) chroms) px
               [1;1;1;1;1]%Q 2 5) (1#10) 20 [1;1;1]%Q = Some (bb, Some mu, v, k) /\ Qltb v (1#10) = true.
Proof.
  cbv zeta. split; [|split; [reflexivity|split]].
  - intros a b Ha Hb Hout. assert (Ea : a = 2 \/ a = 3 \/ a = 4) by lia. assert (Eb : b = 0 \/ b = 1) by lia.
    destruct Ea as [Ea|[Ea|Ea]], Eb as [Eb|Eb]; subst a b; vm_compute; discriminate.
  - unfold rows_sorted, row. cbn [map fst]. apply Sorted.Sorted_StronglySorted; [intros x y z; lia|].
    repeat (apply Sorted.Sorted_cons; [|first [apply Sorted.HdRel_nil | apply Sorted.HdRel_cons; lia]]). apply Sorted.Sorted_nil.
  - do 4 eexists. apply ic_run_spec. vm_compute. reflexivity.
Qed.

(** non-vacuity of the integration: a stored 3-bin table with a masked bin; the balanced read row sums equal the row
    sums of diag(w) S diag(w) and the masked row is NaN *)
Example ex_C10_balanced_read :
  let px := [((0,0),4); ((0,2),6); ((1,2),3); ((2,2),8)] in
  let w := [Some (1#2); None; Some (1#4)]%Q in
  match matrix_balanced (epx_of px) (offsets_of 3 px) 2 true Dense [("weight"%string, w)] (Some None) None (0,3,0,3) with
  | Some (BDense D) =>
      Qred (row_nansum D 0 3) = Qred (rowsum (Fmat [] px) 3 (wq w) 0) /\
      Qred (row_nansum D 2 3) = Qred (rowsum (Fmat [] px) 3 (wq w) 2) /\ nth 1 D [] = [None; None; None]
  | _ => False
  end.
Proof. vm_compute. repeat split; reflexivity. Qed.

(** tie to the source by translation: the element-wise masks of the balancing filters (diagonal band, trans, cis)
    are regenerated per pixel from _balance.py on every run (tools/py2v.py -> Gen.bal_diag_mask, bal_trans_mask,
    bal_cis_mask) and are exactly the conditions of the model's filters; the masked assignment, the binarisation and the
    two bincounts of the marginal are pinned. *)
From Cooler Require Import Gen.Translated Proofs.GenBridgeBalance.
Theorem C10_source_filter_masks_are_model : forall d chroms w,
  f_zero_diags d w = (if Gen.bal_diag_mask (b1 w) (b2 w) d then (fst w, 0%Q) else w) /\
  f_zero_trans chroms w = (if Gen.bal_trans_mask (chrom_of chroms (b1 w)) (chrom_of chroms (b2 w)) then (fst w, 0%Q) else w) /\
  f_zero_cis chroms w = (if Gen.bal_cis_mask (chrom_of chroms (b1 w)) (chrom_of chroms (b2 w)) then (fst w, 0%Q) else w).
Proof. intros. split; [apply gen_zero_diags|split; [apply gen_zero_trans|apply gen_zero_cis]]. Qed.
Print Assumptions C10_source_filter_masks_are_model.
Theorem C10_source_filter_pins : Gen.balance_filter_pins = true.
Proof. exact gen_balance_filter_pins. Qed.
Print Assumptions C10_source_filter_pins.

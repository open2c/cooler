(** C09  Every zoom level of a multires file equals direct coarsening of its base.
    Statements.  A proof here is [exact] of the lemma with the same statement, a few lines from the general lemmas, or an evaluation for a concrete witness;
    the lemmas are in Proofs/ZoomProofs.v and Proofs/GenBridgeZoom.v (source tie).  Model: Model/Zoom.v. *)
From Cooler Require Import Model.Zoom Proofs.BinsProofs Proofs.PixelsProofs Proofs.CoarsenProofs Proofs.ZoomProofs.
From Coq Require Import Sorted Permutation.

(** get_multiplier_sequence, when it returns: resn = sorted(set(bases) | set(resolutions)); every entry is
    either a base (pred = -1) or has a predecessor EARLIER in resn of which it is an integer multiple >= 2 *)
Theorem C09_multseq_sound : forall res bs resn pred mult,
  Positive res -> Positive bs ->
  get_multiplier_sequence res (Some bs) = Some (resn, pred, mult) ->
  resn = np_unique (bs ++ res) /\ length pred = length resn /\ length mult = length resn /\
  forall i, (i < length resn)%nat ->
    (nth i pred 0 = -1 /\ nth i mult 0 = -1 /\ In (nth i resn 0) bs) \/
    (0 <= nth i pred 0 < Z.of_nat i /\ 2 <= nth i mult 0 /\
     nth (Z.to_nat (nth i pred 0)) resn 0 * nth i mult 0 = nth i resn 0).
Proof.
  intros res bs resn pred mult Hr Hb H.
  destruct (multseq_sound res bs Hr Hb resn pred mult H) as (-> & A & B & D). auto.
Qed.
Print Assumptions C09_multseq_sound.

(** it refuses (ValueError) exactly when some requested resolution is not a multiple of any base *)
Theorem C09_multseq_complete : forall res bs, Positive res -> Positive bs ->
  (get_multiplier_sequence res (Some bs) = None <-> exists r, In r res /\ forall b, In b bs -> r mod b <> 0).
Proof. exact multseq_complete. Qed.
Print Assumptions C09_multseq_complete.

(** zoomify_cooler (bases = (bin size, cooler) per base URI, all valid coolers): when it returns, the levels
    written are exactly the requested and base resolutions, each once; every level is the copied base
    (a base is never re-derived, even when it is a multiple of another base) or the DIRECT coarsening of a
    base by the ratio of resolutions — for any chunk/batch size, whatever chain of intermediate levels the
    multiplier sequence used; and it refuses exactly when a requested resolution is not a multiple of a base *)
Theorem C09_zoom_level_eq_direct : forall bases res chunksize batchsize,
  1 <= chunksize -> 1 <= batchsize -> Positive res -> Positive (map fst bases) ->
  (forall b c, In (b, c) bases -> ValidCooler c) ->
  (forall lv, zoomify_cooler bases res chunksize batchsize = Some lv ->
     Permutation (map fst lv) (np_unique (map fst bases ++ res)) /\ NoDup (map fst lv) /\
     forall r c, lookup r lv = Some c ->
       ((In r (map fst bases) /\ lookup r (base_dict bases) = Some c) \/
        (~ In r (map fst bases) /\ exists b cb k, In b (map fst bases) /\ lookup b (base_dict bases) = Some cb /\
            2 <= k /\ r = b * k /\ forall cs bs, 1 <= cs -> 1 <= bs -> c = coarsen_c cb k cs bs))
       /\ ValidCooler c) /\
  (zoomify_cooler bases res chunksize batchsize = None <->
     exists r, In r res /\ forall b, In b (map fst bases) -> r mod b <> 0).
Proof. exact zoom_level_eq_direct. Qed.
Print Assumptions C09_zoom_level_eq_direct.

(** the same for zoomify_cooler(columns=, agg=) with ANY value type and any aggregation that is permutation
    invariant and composes over a partition into non-empty blocks (sum, max, min: C08_sum_max_min_compose;
    not the mean: ex_C09_mean_chain_refuted) *)
Theorem C09_zoom_level_eq_direct_any_agg : forall (V : Type) (agg : list V -> V),
  (forall vs vs', Permutation vs vs' -> agg vs = agg vs') ->
  (forall Gs : list (list V), Forall (fun G => G <> []) Gs -> agg (map agg Gs) = agg (concat Gs)) ->
  forall bases res chunksize batchsize,
  1 <= chunksize -> 1 <= batchsize -> Positive res -> Positive (map fst bases) ->
  (forall b c, In (b, c) bases -> ValidCoolerG c) ->
  (forall lv, zoomify_cooler_g agg bases res chunksize batchsize = Some lv ->
     Permutation (map fst lv) (np_unique (map fst bases ++ res)) /\ NoDup (map fst lv) /\
     forall r c, lookup r lv = Some c ->
       ((In r (map fst bases) /\ lookup r (base_dict bases) = Some c) \/
        (~ In r (map fst bases) /\ exists b cb k, In b (map fst bases) /\ lookup b (base_dict bases) = Some cb /\
            2 <= k /\ r = b * k /\ forall cs bs, 1 <= cs -> 1 <= bs -> c = coarsen_cg agg cb k cs bs))
       /\ ValidCoolerG c) /\
  (zoomify_cooler_g agg bases res chunksize batchsize = None <->
     exists r, In r res /\ forall b, In b (map fst bases) -> r mod b <> 0).
Proof. intros V agg Hp Hc. exact (zoom_level_eq_direct_g agg Hp (GroupBy.compose_decomp agg Hc)). Qed.
Print Assumptions C09_zoom_level_eq_direct_any_agg.

(** instantiated: sum, max and min (V = Z), as driven by the harness *)
Theorem C09_zoom_level_eq_direct_sum_max_min : forall op bases res chunksize batchsize,
  1 <= chunksize -> 1 <= batchsize -> Positive res -> Positive (map fst bases) ->
  (forall b c, In (b, c) bases -> ValidCoolerG c) ->
  forall lv, zoomify_cooler_g (agg_of op) bases res chunksize batchsize = Some lv ->
  forall r c, lookup r lv = Some c -> ~ In r (map fst bases) ->
  exists b cb k, In b (map fst bases) /\ lookup b (base_dict bases) = Some cb /\ 2 <= k /\ r = b * k /\
                 c = coarsen_cg (agg_of op) cb k chunksize batchsize.
Proof.
  intros op bases res cs bs Hcs Hbs Hr Hb Hv lv E r c Hl Hn.
  destruct (zoom_level_eq_direct_g (agg_of op) (agg_of_perm op) (agg_of_decomp op) bases res cs bs Hcs Hbs Hr Hb Hv) as [H _].
  destruct (H lv E) as (_ & _ & D). destruct (D r c Hl) as [[(X & _)|(_ & b & cb & k & A1 & A2 & A3 & A4 & A5)] _]; [contradiction|].
  exists b, cb, k. repeat split; auto.
Qed.
Print Assumptions C09_zoom_level_eq_direct_sum_max_min.

(** the step used along the chain: two coarsenings of a valid cooler compose *)
Theorem C09_coarsen_c_compose : forall c k1 k2 cs1 bs1 cs2 bs2 cs bs,
  1 <= k1 -> 1 <= k2 -> 1 <= cs1 -> 1 <= bs1 -> 1 <= cs2 -> 1 <= bs2 -> 1 <= cs -> 1 <= bs -> ValidCooler c ->
  coarsen_c (coarsen_c c k1 cs1 bs1) k2 cs2 bs2 = coarsen_c c (k1 * k2) cs bs.
Proof. exact coarsen_c_compose. Qed.
Print Assumptions C09_coarsen_c_compose.

(** rB -> exactly the r*2^i <= max, ascending; rN -> exactly the r*{1,2,5}*10^j <= max, ascending
    (a strictly sorted list is determined by its members: ssorted_ext) *)
Theorem C09_spec_binary : forall start stop, 1 <= start ->
  (forall y, In y (preferred_sequence start stop true) <-> exists i, 0 <= i /\ y = start * 2 ^ i /\ y <= stop) /\
  StronglySorted Z.lt (preferred_sequence start stop true).
Proof. exact preferred_binary_spec. Qed.
Print Assumptions C09_spec_binary.

Theorem C09_spec_nice : forall start stop, 1 <= start ->
  (forall y, In y (preferred_sequence start stop false) <->
     exists j m, 0 <= j /\ (m = 1 \/ m = 2 \/ m = 5) /\ y = start * 10 ^ j * m /\ y <= stop) /\
  StronglySorted Z.lt (preferred_sequence start stop false).
Proof. exact preferred_nice_spec. Qed.
Print Assumptions C09_spec_nice.

Theorem C09_sorted_determined : forall l1 l2, StronglySorted Z.lt l1 -> StronglySorted Z.lt l2 ->
  (forall y, In y l1 <-> In y l2) -> l1 = l2.
Proof. exact (ssorted_ext Z.lt Z.lt_irrefl Z.lt_trans). Qed.
Print Assumptions C09_sorted_determined.

(** the expansion itself: items in order; 4DN is an alias for 1000,2000,5000N; plain integers stand for themselves *)
Theorem C09_spec_expand : forall curres maxres items,
  expand_spec curres maxres items = concat (map (fun it =>
    match it with
    | SpecN => preferred_sequence curres maxres false
    | SpecB => preferred_sequence curres maxres true
    | Spec4DN => 1000 :: 2000 :: preferred_sequence 5000 maxres false
    | SpecIntN r => preferred_sequence r maxres false
    | SpecIntB r => preferred_sequence r maxres true
    | SpecInt r => [r]
    end) items).
Proof. reflexivity. Qed.
Print Assumptions C09_spec_expand.

Example ex_C09_multseq :
  get_multiplier_sequence [8;4;16;12] (Some [2;4]) = Some ([2; 4; 8; 12; 16], [-1; 0; 1; 1; 2], [-1; 2; 2; 3; 2]) /\
  get_multiplier_sequence [2;3;6] (Some [1]) = Some ([1; 2; 3; 6], [-1; 0; 0; 2], [-1; 2; 3; 2]) /\
  get_multiplier_sequence [6;7] (Some [2]) = None.
Proof. vm_compute. repeat split; reflexivity. Qed.

(** a two-base run of the D17 shape (bases 2 and 4 over one chromosome of 4 resp. 2 bins; base 4 carries its
    own data): level 4 is the COPY of base 4, level 8 derives from it *)
Definition ex_b2 : cooler := ([(0,0,2);(0,2,4);(0,4,6);(0,6,8)], [8], [((0,0),1);((0,3),2);((2,3),5)]).
Definition ex_b4 : cooler := ([(0,0,4);(0,4,8)], [8], [((0,1),100)]).
Example ex_C09_zoomify :
  zoomify_cooler [(2, ex_b2); (4, ex_b4)] [8] 1 1 =
    Some [(8, ([(0,0,8)], [8], [((0,0),100)])); (2, ex_b2); (4, ex_b4)] /\
  zoomify_cooler [(2, ex_b2)] [4; 8] 1 1 =
    Some [(8, ([(0,0,8)], [8], [((0,0),8)])); (4, ([(0,0,4);(0,4,8)], [8], [((0,0),1);((0,1),2);((1,1),5)])); (2, ex_b2)] /\
  zoomify_cooler [(2, ex_b2)] [4; 7] 1 1 = None.
Proof. vm_compute. repeat split; reflexivity. Qed.

Example ex_C09_valid_cooler : ValidCooler ex_b2 /\ ValidCooler ex_b4.
Proof.
  split.
  - exists [[(0,0,2);(0,2,4);(0,4,6);(0,6,8)]]. split; [reflexivity|]. split; [apply valid_blocks_b_sound; reflexivity|].
    split; [reflexivity|]. split; [apply ssorted_b_rowsorted; reflexivity|apply inrange_b_sound; reflexivity].
  - exists [[(0,0,4);(0,4,8)]]. split; [reflexivity|]. split; [apply valid_blocks_b_sound; reflexivity|].
    split; [reflexivity|]. split; [apply ssorted_b_rowsorted; reflexivity|apply inrange_b_sound; reflexivity].
Qed.

Example ex_C09_spec :
  expand_spec 10 200 [SpecIntB 10] = [10; 20; 40; 80; 160] /\
  expand_spec 10 200 [SpecIntN 10] = [10; 20; 50; 100; 200] /\
  expand_spec 1000 11719 [Spec4DN] = [1000; 2000; 5000; 10000] /\
  expand_spec 10 200 [SpecInt 20; SpecIntB 40] = [20; 40; 80; 160].
Proof. vm_compute. repeat split; reflexivity. Qed.

(** max along a chain 2 -> 4 -> 8 equals max over the base block; the mean along the same chain does NOT
    equal the mean over the base block (which is why the harness never uses mean on chains) *)
Definition ex_g2 : gcooler Z := ([(0,0,2);(0,2,4);(0,4,6);(0,6,8)], [8], [((0,0),1);((0,2),3);((1,3),5)]).
Example ex_C09_max_chain :
  zoomify_cooler_g agg_max [(2, ex_g2)] [4; 8] 1 1 =
    Some [(8, ([(0,0,8)], [8], [((0,0),5)])); (4, ([(0,0,4);(0,4,8)], [8], [((0,0),1);((0,1),5)])); (2, ex_g2)] /\
  coarsen_cg agg_max ex_g2 4 1 1 = ([(0,0,8)], [8], [((0,0),5)]).
Proof. vm_compute. split; reflexivity. Qed.
Example ex_C09_mean_chain_refuted :
  (exists lv c, zoomify_cooler_g agg_mean [(2, ex_g2)] [4; 8] 1 1 = Some lv /\ lookup 8 lv = Some c /\
                c <> coarsen_cg agg_mean ex_g2 4 1 1) /\
  snd (coarsen_cg agg_mean ex_g2 4 1 1) = [((0,0),3)].
Proof.
  split; [|vm_compute; reflexivity].
  eexists. eexists. split; [vm_compute; reflexivity|]. split; [vm_compute; reflexivity|]. vm_compute. discriminate.
Qed.

(** ---- tie to the source by translation: the inner search loop of get_multiplier_sequence
    (`while p >= 0: if target % resn[p] == 0: pred[i] = p; mult[i] = target // resn[p]; break / else: p -= 1`) is
    translated from _reduce.py on every run (tools/py2v.py -> Gen.multseq_scan, started at Gen.multseq_start i = i - 1);
    what it computes for position i is the model's (pred[i], mult[i]).  The statements around the loop (base set, sorted
    union, -1 initialisation, the final derivability check) are pinned: Gen.multseq_source_pins exists only if they are
    unchanged. *)
From Cooler Require Import Gen.Translated Proofs.GenBridgeZoom.
Theorem C09_source_search_loop_is_model : forall resn i, (i < length resn)%nat ->
  Gen.multseq_scan (S i) resn (nth i resn 0) (Gen.multseq_start (Z.of_nat i)) = pred_mult resn i.
Proof. intros resn i Hi. unfold Gen.multseq_start, pred_mult. apply gen_scan_eq_scan_down. lia. Qed.
Print Assumptions C09_source_search_loop_is_model.
Theorem C09_source_pins : Gen.multseq_source_pins = true.
Proof. reflexivity. Qed.
Print Assumptions C09_source_pins.

(** the coarsener's re-binning quotient `np.floor(start / binsize)` — the expression Proofs/FloatDiv.v proves exact (see
    C08_binary64_relative_bin_exact) — is pinned in the source on every run: a reciprocal multiplication is a different
    computation (it is wrong for about one bin size in nine) *)
Theorem C09_float_division_source_pins : Gen.float_division_pins_coarsen = true.
Proof. reflexivity. Qed.
Print Assumptions C09_float_division_source_pins.

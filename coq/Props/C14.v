(** C14  Table selectors and bin annotation return the rows and coordinates asked for.
    Statements.  A proof here is [exact] of the lemma with the same statement, a few lines from the general lemmas, or an evaluation for a concrete witness;
    the lemmas are in Proofs/TableProofs.v (Proofs/GenBridge.v for the source tie).  A table is a list of (field, column); [colof t f] is column f. *)
From Cooler Require Import Model.Query Model.Table Proofs.BaseProofs Proofs.TableProofs.
From Cooler Require Import Gen.Translated Proofs.GenBridge.

(** get: exactly the stored rows lo..hi-1 of every requested column, labelled with their row numbers *)
Theorem C14_get_spec : forall t n lo hi fields,
  WellFormed t n -> 0 <= lo -> lo <= hi -> hi <= n ->
  (forall f, In f fields -> lookup_col t f <> None) -> fields <> [] ->
  get t lo (Some hi) fields =
  Some (zrange lo (Z.to_nat (hi - lo)), map (fun f => (f, slice (colof t f) lo hi)) fields).
Proof. exact get_spec. Qed.
Print Assumptions C14_get_spec.

Theorem C14_get_rows_are_stored_rows : forall t n lo hi f k,
  WellFormed t n -> 0 <= lo -> lo <= hi -> hi <= n -> 0 <= k < hi - lo ->
  nth (Z.to_nat k) (zrange lo (Z.to_nat (hi - lo))) 0 = lo + k /\
  nth (Z.to_nat k) (slice (colof t f) lo hi) 0 = nth (Z.to_nat (lo + k)) (colof t f) 0.
Proof. intros. split; [rewrite nth_zrange; lia|apply nth_slice; lia]. Qed.
Print Assumptions C14_get_rows_are_stored_rows.

(** a column selection never changes which rows come back *)
Theorem C14_column_subset_commutes : forall t n lo hi fields1 fields2 l1 d1 l2 d2 f c1 c2,
  WellFormed t n -> 0 <= lo -> lo <= hi -> hi <= n ->
  (forall g, In g fields1 -> lookup_col t g <> None) -> (forall g, In g fields2 -> lookup_col t g <> None) ->
  get t lo (Some hi) fields1 = Some (l1, d1) -> get t lo (Some hi) fields2 = Some (l2, d2) ->
  In (f, c1) d1 -> In (f, c2) d2 -> l1 = l2 /\ c1 = c2.
Proof. exact get_column_subset_commutes. Qed.
Print Assumptions C14_column_subset_commutes.

(** slicing a selector: bounds within [-n, n] resolved as for arrays, then exactly those rows *)
Theorem C14_selector_slice_spec : forall t n fields start stop, 0 <= n -> WellFormed t n ->
  (forall a, start = Some a -> - n <= a <= n) -> (forall b, stop = Some b -> - n <= b <= n) ->
  (forall f, In f fields -> lookup_col t f <> None) -> fields <> [] ->
  let lo := match start with None => 0 | Some a => a mod n + (if a =? n then n else 0) end in
  let hi := match stop with None => n | Some b => b mod n + (if b =? n then n else 0) end in
  lo <= hi ->
  selector_slice t n fields start stop = Some (zrange lo (Z.to_nat (hi - lo)), map (fun f => (f, slice (colof t f) lo hi)) fields).
Proof. exact selector_slice_spec. Qed.
Print Assumptions C14_selector_slice_spec.
(** ... and for every bound up to the length, however negative: [array_bound a n] is how an array resolves the bound
    (add n to a negative one, then clamp to [0, n]).  Before the repair of defect D33, bounds below -n gave rows with negative labels. *)
Theorem C14_selector_slice_array_semantics : forall t n fields start stop, 0 <= n -> WellFormed t n ->
  (forall a, start = Some a -> a <= n) -> (forall b, stop = Some b -> b <= n) ->
  (forall f, In f fields -> lookup_col t f <> None) -> fields <> [] ->
  let lo := match start with None => 0 | Some a => array_bound a n end in
  let hi := match stop with None => n | Some b => array_bound b n end in
  lo <= hi ->
  selector_slice t n fields start stop = Some (zrange lo (Z.to_nat (hi - lo)), map (fun f => (f, slice (colof t f) lo hi)) fields).
Proof. exact selector_slice_array_semantics. Qed.
Print Assumptions C14_selector_slice_array_semantics.

(** annotate: for every pixel list (any order, repeats, any length relative to the bin count: both strategies of
    the code) and every contiguous view of the bin table that contains the needed bins, row k carries the fields of
    its own bin1 and bin2; order and index are preserved *)
Theorem C14_annotate_spec : forall v nbins px, 0 <= vfirst v ->
  (forall r, In r px -> vfirst v <= fst (fst (snd r)) <= vlast v /\ vfirst v <= snd (fst (snd r)) <= vlast v) ->
  annotate v nbins px =
  Some (map (fun r => (fst r, (nth (Z.to_nat (fst (fst (snd r)) - vfirst v)) (vrows v) [],
                               nth (Z.to_nat (snd (fst (snd r)) - vfirst v)) (vrows v) [],
                               snd r))) px).
Proof. exact annotate_spec. Qed.
Print Assumptions C14_annotate_spec.

Theorem C14_int_chrom_decoding : forall names codes k, 0 <= k < zlen codes ->
  nth (Z.to_nat k) (decode_chrom names codes) (-1) = nth (Z.to_nat (nth (Z.to_nat k) codes 0)) names (-1).
Proof. exact decode_chrom_spec. Qed.
Print Assumptions C14_int_chrom_decoding.

(** tie by translation: the slice resolution used by the selectors is the text regenerated from /repo's source *)
Theorem C14_source_process_slice_is_model : forall start stop s nmax,
  Gen.process_slice start stop nmax = process_slice start stop nmax /\ Gen.process_scalar s nmax = process_scalar s nmax.
Proof. intros. split; [apply gen_process_slice|apply gen_process_scalar]. Qed.
Print Assumptions C14_source_process_slice_is_model.

(** non-vacuity, and why the view must contain the needed bins: a view that starts after a needed bin makes the
    positional take wrap around (Python negative indexing) and silently annotate with the wrong bin *)
Definition ex14_view := {| vfirst := 2; vrows := [[20;30];[30;40];[40;50]] |}.
Example ex_C14_annotate :
  annotate ex14_view 6 [(7, ((4, 2), [9])); (8, ((3, 3), [1]))] =
  Some [(7, ([40;50], [20;30], ((4, 2), [9]))); (8, ([30;40], [30;40], ((3, 3), [1])))].
Proof. vm_compute. reflexivity. Qed.
Example ex_C14_view_must_contain_bins :
  annotate_ids ex14_view 2 [1; 1] = Some [[40;50]; [40;50]] /\ annotate_ids ex14_view 6 [1] = None.
Proof. vm_compute. split; reflexivity. Qed.
Example ex_C14_get :
  get [(0, [5;6;7;8]); (1, [50;60;70;80])] 1 (Some 3) [1; 0] = Some ([1;2], [(1, [60;70]); (0, [6;7])]).
Proof. vm_compute. reflexivity. Qed.

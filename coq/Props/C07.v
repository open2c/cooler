(** C07  Merging coolers is the exact element-wise aggregate of the inputs.
    Statements.  A proof here is [exact] of the lemma with the same statement, a few lines from the general lemmas, or an evaluation for a concrete witness;
    the lemmas are in Proofs/MergeProofs.v (the group-by theory in Proofs/GroupBy.v) and, for the last theorem, Proofs/MergeQuery.v. *)
From Cooler Require Import Model.Merge Proofs.PixelsProofs Proofs.BinsProofs Proofs.MergeProofs.
From Coq Require Import Sorted Permutation.

(** merge_breakpoints terminates (fuel = length of the index = n_bins + 1 is never exhausted) for every
    family of monotone bin1_offset arrays of equal length L >= 2 starting at 0 and every bufsize >= 0;
    the partition starts at 0, is strictly increasing, stays inside the index, and every row from its
    last element on is empty in every input (so the epochs cover every record). *)
Theorem C07_breakpoints_partition : forall (idxs : list (list Z)) (L : nat) (buf : Z),
  idxs <> [] -> (2 <= L)%nat ->
  Forall (fun a => length a = L /\ MonoN a /\ nth 0 a 0 = 0) idxs -> 0 <= buf ->
  exists p, merge_breakpoints L idxs buf = Ok p /\
    hd 1%nat p = O /\ StronglySorted lt p /\ Forall (fun h => (h < L)%nat) p /\
    Forall (fun a => forall r, (last p O <= r < L)%nat -> nth r a 0 = nth (L - 1) a 0) idxs.
Proof. exact breakpoints_partition. Qed.
Print Assumptions C07_breakpoints_partition.

Theorem C07_sorted_is_monotone : forall l, Sorted Z.le l -> MonoN l.
Proof. intros l H. apply ssorted_mono, Sorted_StronglySorted; [intros x y z; lia|exact H]. Qed.
Print Assumptions C07_sorted_is_monotone.

(** [ValidIn n c]: the pixel table of input c has non-decreasing bin1_id in [0,n) and indexes/bin1_offset is
    its index (property C02 of every written cooler).  [allpx inputs] is the concatenation of all input
    pixel tables, [merged_px agg inputs buf] the concatenation of the chunks CoolerMerger yields.
    Any value type (tuple of columns) and any aggregation function: for every non-empty family of valid
    inputs and every buffer size the merger terminates without error, never yields an empty chunk, and
    what it writes is the sorted group-by aggregate of all input records *)
Theorem C07_merger_exact : forall (V : Type) (agg : list V -> V) (n : nat) (inputs : list (mcool V)) (buf : Z),
  inputs <> [] -> (1 <= n)%nat -> Forall (ValidIn n) inputs -> 0 <= buf ->
  exists eps, cooler_merger agg inputs buf = Ok eps /\
    concat eps = groupby_agg agg (allpx inputs) /\ Forall (fun e => e <> []) eps.
Proof. intros V. exact (@merger_exact V). Qed.
Print Assumptions C07_merger_exact.

(** ... i.e. strictly sorted, exactly the pixels present in some input, and for every stored pixel the
    requested aggregate of exactly that pixel's values over the inputs (in input order) *)
Theorem C07_merger_pixelwise : forall (V : Type) (agg : list V -> V) (n : nat) (inputs : list (mcool V)) (buf : Z),
  inputs <> [] -> (1 <= n)%nat -> Forall (ValidIn n) inputs -> 0 <= buf ->
  exists out, merged_px agg inputs buf = Ok out /\
    StronglySorted klt (map fst out) /\
    (forall k, In k (map fst out) <-> In k (map fst (allpx inputs))) /\
    (forall k v, In (k, v) out -> v = agg (vals (allpx inputs) k)).
Proof.
  intros V agg n inputs buf Hne Hn HV Hb. exists (groupby_agg agg (allpx inputs)). split; [now apply (merger_groupby agg n)|].
  split; [apply groupby_agg_sorted|]. split; [intro k; apply groupby_agg_keys|intros k v; apply groupby_agg_value].
Qed.
Print Assumptions C07_merger_pixelwise.

(** count column, sum: the merged table is the canonical aggregate of Model/Pixels.v and the recorded total
    is the sum of the input totals *)
Theorem C07_merger_canon : forall (n : nat) (inputs : list (mcool Z)) (buf : Z),
  inputs <> [] -> (1 <= n)%nat -> Forall (ValidIn n) inputs -> 0 <= buf ->
  exists out, merged_px sumZ inputs buf = Ok out /\
    Canon (allpx inputs) out /\ out = aggregate (allpx inputs) /\
    total out = sumZ (map (fun c => total (mc_px c)) inputs).
Proof. exact merger_canon. Qed.
Print Assumptions C07_merger_canon.

Theorem C07_buffer_independent : forall (V : Type) (agg : list V -> V) (n : nat) (inputs : list (mcool V)) (buf buf' : Z),
  inputs <> [] -> (1 <= n)%nat -> Forall (ValidIn n) inputs -> 0 <= buf -> 0 <= buf' ->
  merged_px agg inputs buf = merged_px agg inputs buf'.
Proof. intros V agg n inputs buf buf' Hne Hn HV Hb Hb'. now rewrite !(merger_groupby agg n). Qed.
Print Assumptions C07_buffer_independent.

Theorem C07_order_independent : forall (n : nat) (inputs inputs' : list (mcool Z)) (buf buf' : Z),
  Permutation inputs inputs' ->
  inputs <> [] -> (1 <= n)%nat -> Forall (ValidIn n) inputs -> 0 <= buf -> 0 <= buf' ->
  merged_px sumZ inputs buf = merged_px sumZ inputs' buf'.
Proof. intros n inputs inputs' buf buf'. apply merge_order_independent_gen, BaseProofs.sumZ_perm. Qed.
Print Assumptions C07_order_independent.

Theorem C07_order_independent_any_agg : forall (V : Type) (agg : list V -> V) (n : nat) (inputs inputs' : list (mcool V)) (buf buf' : Z),
  (forall vs vs', Permutation vs vs' -> agg vs = agg vs') ->
  Permutation inputs inputs' ->
  inputs <> [] -> (1 <= n)%nat -> Forall (ValidIn n) inputs -> 0 <= buf -> 0 <= buf' ->
  merged_px agg inputs buf = merged_px agg inputs' buf'.
Proof. intros V. exact (@merge_order_independent_gen V). Qed.
Print Assumptions C07_order_independent_any_agg.

(** associativity over histories: storing the merge of xs (table + its index) and merging that file with ys
    equals merging xs ++ ys at once; xs = [a;b], ys = [c] is merge [merge [a;b]; c] = merge [a;b;c] *)
Theorem C07_merge_assoc : forall (n : nat) (xs ys : list (mcool Z)) (b1 b2 b3 : Z),
  xs <> [] -> (1 <= n)%nat -> Forall (ValidIn n) xs -> Forall (ValidIn n) ys ->
  0 <= b1 -> 0 <= b2 -> 0 <= b3 ->
  exists m, merged_px sumZ xs b1 = Ok m /\
    merged_px sumZ (mk_cool n m :: ys) b2 = merged_px sumZ (xs ++ ys) b3.
Proof. exact merge_assoc. Qed.
Print Assumptions C07_merge_assoc.

(** the composition law  agg (map agg Gs) = agg (concat Gs)  and its instances: the exact sum and the int64
    machine sum obey it unconditionally; max and min (which return the default 0 on an empty list) obey it
    for non-empty groups, and the unguarded form is false for them *)
Theorem C07_sum_compose : forall Gs : list (list Z), sumZ (map sumZ Gs) = sumZ (concat Gs).
Proof. exact sum_compose. Qed.
Print Assumptions C07_sum_compose.
Theorem C07_int64_sum_compose : forall Gs : list (list Z), agg_col ASum (map (agg_col ASum) Gs) = agg_col ASum (concat Gs).
Proof. exact wsum_compose. Qed.
Print Assumptions C07_int64_sum_compose.
Theorem C07_max_compose : forall Gs : list (list Z), Forall (fun G => G <> []) Gs -> lmax (map lmax Gs) = lmax (concat Gs).
Proof. exact max_compose. Qed.
Print Assumptions C07_max_compose.
Theorem C07_min_compose : forall Gs : list (list Z), Forall (fun G => G <> []) Gs -> lmin (map lmin Gs) = lmin (concat Gs).
Proof. exact min_compose. Qed.
Print Assumptions C07_min_compose.
Theorem C07_max_compose_unguarded_refuted : exists Gs, lmax (map lmax Gs) <> lmax (concat Gs).
Proof. exact max_compose_unguarded_refuted. Qed.
Print Assumptions C07_max_compose_unguarded_refuted.

(** associativity for every aggregation that obeys the composition law on
    non-empty groups and returns a single value unchanged; instances max and min *)
Theorem C07_merge_assoc_any_agg : forall (V : Type) (agg : list V -> V),
  (forall Gs : list (list V), Forall (fun G => G <> []) Gs -> agg (map agg Gs) = agg (concat Gs)) ->
  (forall v, agg [v] = v) ->
  forall (n : nat) (xs ys : list (mcool V)) (b1 b2 b3 : Z),
  xs <> [] -> (1 <= n)%nat -> Forall (ValidIn n) xs -> Forall (ValidIn n) ys ->
  0 <= b1 -> 0 <= b2 -> 0 <= b3 ->
  exists m, merged_px agg xs b1 = Ok m /\
    merged_px agg (mk_cool n m :: ys) b2 = merged_px agg (xs ++ ys) b3.
Proof. intros V agg H1 H2. exact (merge_assoc_gen agg H1 H2). Qed.
Print Assumptions C07_merge_assoc_any_agg.
Theorem C07_merge_assoc_max : forall (n : nat) (xs ys : list (mcool Z)) (b1 b2 b3 : Z),
  xs <> [] -> (1 <= n)%nat -> Forall (ValidIn n) xs -> Forall (ValidIn n) ys -> 0 <= b1 -> 0 <= b2 -> 0 <= b3 ->
  exists m, merged_px lmax xs b1 = Ok m /\ merged_px lmax (mk_cool n m :: ys) b2 = merged_px lmax (xs ++ ys) b3.
Proof. apply (merge_assoc_gen lmax max_compose max_single). Qed.
Print Assumptions C07_merge_assoc_max.
Theorem C07_merge_assoc_min : forall (n : nat) (xs ys : list (mcool Z)) (b1 b2 b3 : Z),
  xs <> [] -> (1 <= n)%nat -> Forall (ValidIn n) xs -> Forall (ValidIn n) ys -> 0 <= b1 -> 0 <= b2 -> 0 <= b3 ->
  exists m, merged_px lmin xs b1 = Ok m /\ merged_px lmin (mk_cool n m :: ys) b2 = merged_px lmin (xs ++ ys) b3.
Proof. apply (merge_assoc_gen lmin min_compose min_single). Qed.
Print Assumptions C07_merge_assoc_min.

(** the output of a merge is again a valid input (closes the induction over merge histories) *)
Theorem C07_merged_is_valid : forall (V : Type) (agg : list V -> V) (n : nat) (inputs : list (mcool V)),
  Forall (ValidIn n) inputs -> ValidIn n (mk_cool n (groupby_agg agg (allpx inputs))).
Proof. intros V. exact (@valid_merged V). Qed.
Print Assumptions C07_merged_is_valid.

(** refusal of incompatible inputs: an output exists only if every input has the storage mode of the first
    and passed CoolerMerger's compatibility test against it ... *)
Theorem C07_refuse_incompatible : forall inputs buf columns dtypes aggs c,
  merge_coolers inputs buf columns dtypes aggs = Ok c ->
  exists c0 rest, inputs = c0 :: rest /\
    Forall (fun ci => c_symm ci = c_symm c0 /\ compatible c0 ci = true) inputs /\
    c_bins c = c_bins c0 /\ c_names c = c_names c0 /\ c_symm c = c_symm c0.
Proof. exact refuse_incompatible. Qed.
Print Assumptions C07_refuse_incompatible.

(** ... and that test is sound: on valid bin tables acceptance implies the same chromosome names and the
    same bin table, also on the fixed-bin-size branch that compares only (bin size, names, lengths) -- by C20 *)
Theorem C07_compatible_same_axes : forall c0 c blocks0 blocks,
  c_bins c0 = concat blocks0 -> c_bins c = concat blocks ->
  BinsProofs.ValidBlocks blocks0 -> BinsProofs.ValidBlocks blocks ->
  compatible c0 c = true -> c_bins c = c_bins c0 /\ c_names c = c_names c0.
Proof. exact compatible_same_axes. Qed.
Print Assumptions C07_compatible_same_axes.

Theorem C07_merged_inputs_share_axes : forall inputs buf columns dtypes aggs c,
  merge_coolers inputs buf columns dtypes aggs = Ok c ->
  Forall (fun ci => exists blocks, c_bins ci = concat blocks /\ BinsProofs.ValidBlocks blocks) inputs ->
  Forall (fun ci => c_bins ci = c_bins c /\ c_names ci = c_names c /\ c_symm ci = c_symm c) inputs.
Proof. exact merged_inputs_share_axes. Qed.
Print Assumptions C07_merged_inputs_share_axes.

(** stored value = aggregate or error (guarded form): merge_coolers either fails or stores, for every pixel,
    the row of per-column aggregates of that pixel's values over the (column-projected) inputs, computed in
    the machine arithmetic of the model (integer sums accumulate in int64), and every stored value lies
    within its output dtype *)
Theorem C07_no_silent_overflow : forall inputs buf columns dtypes aggs,
  0 <= buf ->
  (1 <= c_nbins (hd {| c_names := []; c_bins := []; c_symm := true; c_cols := []; c_off := []; c_px := []; c_sum := 0 |} inputs))%nat ->
  Forall (fun ci => ValidIn (c_nbins (hd ci inputs)) (as_mcool ci)) inputs ->
  match merge_coolers inputs buf columns dtypes aggs with
  | Err _ => True
  | Ok c => exists projected,
      Forall2 (fun ci pi => map fst (mc_px pi) = map fst (c_px ci) /\ mc_off pi = c_off ci) inputs projected /\
      c_px c = groupby_agg (agg_row (mc_ops columns aggs)) (allpx projected) /\
      forall k row, In (k, row) (c_px c) ->
        row = agg_row (mc_ops columns aggs) (vals (allpx projected) k) /\
        fits_row (map snd (c_cols c)) row = true
  end.
Proof. exact no_silent_overflow. Qed.
Print Assumptions C07_no_silent_overflow.

(** the machine sum is the exact sum whenever the exact sum fits int64; column j of a stored row is the
    aggregate of column j *)
Theorem C07_sum_exact_within_int64 : forall vs, - 2 ^ 63 <= sumZ vs < 2 ^ 63 -> agg_col ASum vs = sumZ vs.
Proof. exact agg_col_sum_exact. Qed.
Print Assumptions C07_sum_exact_within_int64.
Theorem C07_row_aggregate_columnwise : forall ops rows j op, nth_error ops j = Some op ->
  nth j (agg_row ops rows) 0 = agg_col op (map (fun r => nth j r 0) rows).
Proof. exact agg_row_nth. Qed.
Print Assumptions C07_row_aggregate_columnwise.

(** multi-column merges, column-wise: a summed column j of the merged table whose per-pixel sums fit int64 is the
    canonical aggregate (Model/Pixels.v) of column j of all input records, total included *)
Theorem C07_column_canon : forall ops (l : list (key * list Z)) j,
  nth_error ops j = Some ASum ->
  (forall k, In k (map fst l) -> - 2 ^ 63 <= sumZ (vals (colproj j l) k) < 2 ^ 63) ->
  colproj j (groupby_agg (agg_row ops) l) = aggregate (colproj j l) /\
  Canon (colproj j l) (colproj j (groupby_agg (agg_row ops) l)) /\
  total (colproj j (groupby_agg (agg_row ops) l)) = total (colproj j l).
Proof. exact column_canon. Qed.
Print Assumptions C07_column_canon.

(** "its recorded total is the sum of the input totals", guarded: with count (position i of the merged columns)
    summed and no per-pixel sum leaving int64, info["sum"] is the int64 wrap of the exact sum of all input
    counts, hence equal to it whenever that exact total fits int64 *)
Theorem C07_total_exact_within_int64 : forall inputs buf columns dtypes aggs c i,
  0 <= buf -> (1 <= c_nbins (hd c inputs))%nat ->
  Forall (fun ci => ValidIn (c_nbins (hd ci inputs)) (as_mcool ci)) inputs ->
  merge_coolers inputs buf columns dtypes aggs = Ok c ->
  col_pos (map (fun c => (c, 0)) (mc_columns columns)) 0 = Some i ->
  nth_error (mc_ops columns aggs) i = Some ASum ->
  let all_counts := colproj i (allpx (proj_inputs inputs columns)) in
  (forall k, In k (map fst all_counts) -> - 2 ^ 63 <= sumZ (vals all_counts k) < 2 ^ 63) ->
  c_sum c = wrap64 (total all_counts) /\
  (- 2 ^ 63 <= total all_counts < 2 ^ 63 -> c_sum c = total all_counts).
Proof. exact total_exact_within_int64. Qed.
Print Assumptions C07_total_exact_within_int64.

(** the unguarded statement is FALSE of the faithful model and of the code (known finding D28): two inputs
    whose own totals fit int64, no pixel in common, every stored pixel exact -- the recorded total wraps *)
Theorem C07_total_exact_refuted :
  exists inputs c, merge_coolers inputs 10 None [] [] = Ok c /\
    c_px c = [((0, 1), [2 ^ 62]); ((1, 2), [2 ^ 62]); ((2, 2), [5])] /\
    map c_sum inputs = [2 ^ 62; 2 ^ 62 + 5] /\
    c_sum c = - 2 ^ 63 + 5 /\ sumZ (map c_sum inputs) = 2 ^ 63 + 5.
Proof.
  exists [ {| c_names := [0]; c_bins := [(0,0,10); (0,10,20); (0,20,30)]; c_symm := true; c_cols := [(0, 64)];
              c_off := [0;1;1;1]; c_px := [((0,1),[2 ^ 62])]; c_sum := 2 ^ 62 |};
           {| c_names := [0]; c_bins := [(0,0,10); (0,10,20); (0,20,30)]; c_symm := true; c_cols := [(0, 64)];
              c_off := [0;0;1;2]; c_px := [((1,2),[2 ^ 62]); ((2,2),[5])]; c_sum := 2 ^ 62 + 5 |} ].
  eexists. split; [vm_compute; reflexivity|]. repeat split; vm_compute; reflexivity.
Qed.
Print Assumptions C07_total_exact_refuted.

(** the unguarded statement "a stored sum is never different from the exact sum unless an error is raised" is
    FALSE of the faithful model (and of the code: known finding D19): two int64 counts 2^62 *)
Theorem C07_no_silent_overflow_refuted :
  exists inputs c, merge_coolers inputs 10 None [] [] = Ok c /\
    c_px c = [((0, 1), [- 2 ^ 63])] /\
    sumZ (map (fun p => nth 0 (snd p) 0) (concat (map c_px inputs))) = 2 ^ 63.
Proof.
  exists [ {| c_names := [0]; c_bins := [(0,0,10); (0,10,20)]; c_symm := true; c_cols := [(0, 64)];
              c_off := [0;1;1]; c_px := [((0,1),[2 ^ 62])]; c_sum := 2 ^ 62 |};
           {| c_names := [0]; c_bins := [(0,0,10); (0,10,20)]; c_symm := true; c_cols := [(0, 64)];
              c_off := [0;1;1]; c_px := [((0,1),[2 ^ 62])]; c_sum := 2 ^ 62 |} ].
  eexists. split; [vm_compute; reflexivity|]. split; vm_compute; reflexivity.
Qed.
Print Assumptions C07_no_silent_overflow_refuted.

(** the D10 input (two int32 counts 2^31-1) is refused by the model, as by the repaired code *)
Example ex_C07_int32_limit_refused :
  let a := {| c_names := [0]; c_bins := [(0,0,10); (0,10,20)]; c_symm := true; c_cols := [(0, 32)];
              c_off := [0;1;1]; c_px := [((0,1),[2 ^ 31 - 1])]; c_sum := 2 ^ 31 - 1 |} in
  merge_coolers [a; a] 10 None [] [] = Err EValue /\
  observe (merge_coolers [a; a] 10 None [(0, 64)] []) = Ok (true, [(0, 64)], [0;1;1], [((0,1),[2 ^ 32 - 2])], 2 ^ 32 - 2).
Proof. vm_compute. split; reflexivity. Qed.

(** non-vacuity: two real-looking indexes (one with leading empty rows), buffer 1 *)
Example ex_C07_breakpoints :
  merge_breakpoints 5 [[0;0;2;3;4]; [0;1;1;1;3]] 1 = Ok [0;1;2;3;4]%nat /\
  merge_breakpoints 5 [[0;0;2;3;4]; [0;1;1;1;3]] 4 = Ok [0;3;4]%nat /\
  merge_breakpoints 4 [[0;0;0;0]] 1 = Ok [0;3]%nat.
Proof. vm_compute. repeat split; reflexivity. Qed.

(** non-vacuity of ValidIn and of the merger theorem: two overlapping inputs, one with leading empty rows,
    buffer of one record *)
Example ex_C07_merge :
  let a := mk_cool 4 [((1,1),2); ((1,2),3); ((2,2),1); ((3,3),4)] in
  let b := mk_cool 4 [((0,1),5); ((1,2),7)] in
  mc_off a = [0;0;2;3;4] /\
    merged_px sumZ [a; b] 1 = Ok [((0,1),5); ((1,1),2); ((1,2),10); ((2,2),1); ((3,3),4)] /\
    merged_px sumZ [b; a] 6 = merged_px sumZ [a; b] 1.
Proof. vm_compute. repeat split; reflexivity. Qed.

(** ---- what a user reads from the merge result (composition with C02 and C03): for symmetric-upper inputs over one bin
    table, the dense range query on the merged cooler -- every window, every read chunk size, every merge buffer -- is the
    element-wise sum of the inputs' symmetric matrices. *)
From Cooler Require Import Model.Query Proofs.QueryProofs Proofs.MergeQuery.
Theorem C07_merge_then_dense_query : forall nc chroms (inputs : list Index.cooler) buf cs i0 i1 j0 j1,
  inputs <> [] -> 1 <= zlen chroms -> 0 <= nc -> 0 <= buf -> 1 <= cs ->
  Forall IndexProofs.ValidCSR inputs -> Forall (HistoryProofs.SameAxes nc chroms true) inputs ->
  0 <= i0 -> i0 <= i1 -> i1 <= zlen chroms -> 0 <= j0 -> j0 <= j1 -> j1 <= zlen chroms ->
  exists c out,
    Index.create_model nc chroms (aggregate (concat (map Index.pixels_of inputs))) true = Some c /\
    fill_lower_query (epx_of (Index.pixels_of c)) (Index.bin1_offset c) (get_spans (Index.bin1_offset c) cs) (i0, i1, j0, j1) = Some out /\
    dense_of out (i0, i1, j0, j1) =
    map (fun i => map (fun j => sumZ (map (fun ci => symm (Index.pixels_of ci) i j) inputs)) (zrange j0 (Z.to_nat (j1 - j0))))
        (zrange i0 (Z.to_nat (i1 - i0))).
Proof. exact merge_then_dense_query. Qed.
Print Assumptions C07_merge_then_dense_query.

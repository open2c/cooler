(** C08  Coarsening by k is exact block aggregation within each chromosome.
    Statements.  A proof here is [exact] of the lemma with the same statement, a few lines from the general lemmas, or an evaluation for a concrete witness;
    the lemmas are in Proofs/CoarsenProofs.v (group-by lemmas through Proofs/CoarsenGroupBy.v), Proofs/FloatDiv.v (binary64 quotient)
    and Proofs/CoarsenQuery.v (last theorem).  Model: Model/Coarsen.v
    (coarsen_bins, GenomeSegmentation, rebin by start coordinate, coarse-row edges,
    _greedy_prune_partition, the chunk stream).  A bin table is given as chromosome blocks
    [blocks] (ValidBlocks: block i is a non-empty tiling of chromosome i from 0); the flat table
    the code sees is [concat blocks], chromsizes = [map chrom_end blocks]. *)
From Cooler Require Import Model.Coarsen Proofs.BinsProofs Proofs.PixelsProofs Proofs.CoarsenGroupBy Proofs.CoarsenProofs.
From Coq Require Import Sorted Permutation.

(** new bin q of chromosome c is [start(old c (q*k)), end(old c (min(q*k+k, n_c) - 1))), there are
    ceil(n_c/k) of them, the new table is a valid tiling with the same chromosome ends *)
Theorem C08_coarsen_bins_spec : forall blocks k, 1 <= k -> ValidBlocks blocks ->
  let nb := map (fun blk => map (fun q =>
                   let x := nth (Z.to_nat (q * k)) blk bin0 in
                   (bchrom x, bstart x, bend (nth (Z.to_nat (Z.min (q * k + k) (zlen blk) - 1)) blk bin0)))
                 (zrange 0 (Z.to_nat (cdiv (zlen blk) k)))) blocks in
  coarsen_bins (concat blocks) (map chrom_end blocks) k = concat nb /\
  ValidBlocks nb /\ map chrom_end nb = map chrom_end blocks /\
  map zlen nb = map (fun blk => cdiv (zlen blk) k) blocks.
Proof. exact coarsen_bins_spec. Qed.
Print Assumptions C08_coarsen_bins_spec.

(** the table old-bin-id -> new-bin-id computed by _aggregate from chromosome and START coordinate
    (division when the new table reports a bin size, searchsorted otherwise) is
    new_off c + m / k  for the old bin at relative index m of chromosome c *)
Theorem C08_rebin_eq_index : forall blocks k, 1 <= k -> ValidBlocks blocks ->
  rebin_table (concat blocks) (map chrom_end blocks) k = index_table (map zlen blocks) k.
Proof. exact rebin_eq_index. Qed.
Print Assumptions C08_rebin_eq_index.

(** both paths separately: the searchsorted path is right on every valid table, the division path
    whenever the NEW table reports a bin size (uses C20 binsize_truthful) *)
Theorem C08_rebin_search_path : forall blocks k, 1 <= k -> ValidBlocks blocks ->
  let newt := concat (map (coarsen_block k) blocks) in
  map (rebin_bin_search newt (map chrom_end blocks)) (concat blocks) = index_table (map zlen blocks) k.
Proof. exact rebin_search_table. Qed.
Print Assumptions C08_rebin_search_path.

Theorem C08_rebin_division_path : forall blocks k, 1 <= k -> ValidBlocks blocks ->
  let newt := concat (map (coarsen_block k) blocks) in
  forall bs, get_binsize newt = Some bs ->
  map (rebin_bin_div newt bs) (concat blocks) = index_table (map zlen blocks) k.
Proof. exact rebin_div_table. Qed.
Print Assumptions C08_rebin_division_path.

(** _greedy_prune_partition, for EVERY non-decreasing edge list from 0 and every chunk size >= 1:
    the result is a sub-sequence of the edges (strictly increasing positions), starts at 0, ends at
    the total and is strictly increasing in value *)
Theorem C08_prune_subsequence : forall rest maxlen,
  let edges := 0 :: rest in
  StronglySorted Z.le edges -> 1 <= maxlen ->
  let p := greedy_prune_partition edges maxlen in
  (exists idx, p = map (fun i => znth edges i 0) idx /\ StronglySorted Z.lt idx /\
               Forall (fun i => 0 <= i < zlen edges) idx) /\
  hd 0 p = 0 /\ last p 0 = last edges 0 /\ StronglySorted Z.lt p.
Proof. exact prune_subsequence. Qed.
Print Assumptions C08_prune_subsequence.

(** the coarse-row edges built from the chromosome offsets and bin1_offset, for any row-sorted pixel
    list, any k and any bin counts: a non-decreasing list from 0 to nnz each of whose entries is an
    ALIGNED cut (every re-keyed row before it is smaller than every re-keyed row after it) *)
Theorem C08_coarse_edges_aligned : forall lens px k,
  1 <= k -> Forall (fun n => 1 <= n) lens -> RowSorted px -> Forall (fun p => 0 <= row p < sumZ lens) px ->
  let E := coarse_edges (0 :: cumsum lens) (bin1_offset (sumZ lens) px) k in
  (exists rest, E = 0 :: rest) /\ StronglySorted Z.le E /\ last E 0 = zlen px /\
  Forall (fun c => AlignedCut (fun r => znth (index_table lens k) r 0) px (Z.to_nat c)) E.
Proof. exact coarse_edges_facts. Qed.
Print Assumptions C08_coarse_edges_aligned.

Theorem C08_chunks_canon : forall parts,
  ForallOrdPairs KeysBefore parts -> concat (map aggregate parts) = aggregate (concat parts).
Proof. exact chunks_canon. Qed.
Print Assumptions C08_chunks_canon.

(** coarsen_cooler's pixel table = canonical aggregate of the pixels re-keyed BY INDEX, for every
    valid bin table (fixed or variable), k >= 1, chunk size >= 1 and batch size (= nproc) >= 1
    — hypothesis of the model: results of a batch come back in order (Pool.map) *)
Theorem C08_coarsen_canon : forall blocks px k chunksize batchsize,
  1 <= k -> 1 <= chunksize -> 1 <= batchsize -> ValidBlocks blocks ->
  RowSorted px -> InRangeRows (zlen (concat blocks)) px ->
  coarsen_pixels (concat blocks) (map chrom_end blocks) px k chunksize batchsize
  = aggregate (map (rekey (index_table (map zlen blocks) k)) px)
  /\ Canon (map (rekey (index_table (map zlen blocks) k)) px)
           (coarsen_pixels (concat blocks) (map chrom_end blocks) px k chunksize batchsize).
Proof. intros. rewrite coarsen_canon by assumption. split; [reflexivity|apply aggregate_canon]. Qed.
Print Assumptions C08_coarsen_canon.

Theorem C08_chunksize_nproc_independent : forall blocks px k cs1 bs1 cs2 bs2,
  1 <= k -> 1 <= cs1 -> 1 <= bs1 -> 1 <= cs2 -> 1 <= bs2 -> ValidBlocks blocks ->
  RowSorted px -> InRangeRows (zlen (concat blocks)) px ->
  coarsen_pixels (concat blocks) (map chrom_end blocks) px k cs1 bs1 =
  coarsen_pixels (concat blocks) (map chrom_end blocks) px k cs2 bs2.
Proof. intros. now rewrite !coarsen_canon by assumption. Qed.
Print Assumptions C08_chunksize_nproc_independent.

Theorem C08_totals_preserved : forall blocks px k chunksize batchsize,
  1 <= k -> 1 <= chunksize -> 1 <= batchsize -> ValidBlocks blocks ->
  RowSorted px -> InRangeRows (zlen (concat blocks)) px ->
  total (coarsen_pixels (concat blocks) (map chrom_end blocks) px k chunksize batchsize) = total px.
Proof.
  intros. rewrite coarsen_canon by assumption. unfold coarsen_spec, total. rewrite sum_aggregate.
  now rewrite map_map.
Qed.
Print Assumptions C08_totals_preserved.

(** k1 then k2 equals k1*k2: bin table and pixel table, fixed AND variable widths, any chunking *)
Theorem C08_coarsen_compose : forall blocks px k1 k2 cs1 bs1 cs2 bs2 cs bs,
  1 <= k1 -> 1 <= k2 -> 1 <= cs1 -> 1 <= bs1 -> 1 <= cs2 -> 1 <= bs2 -> 1 <= cs -> 1 <= bs ->
  ValidBlocks blocks -> RowSorted px -> InRange (zlen (concat blocks)) px ->
  let sizes := map chrom_end blocks in
  let c1 := coarsen_cooler (concat blocks) sizes px k1 cs1 bs1 in
  coarsen_cooler (fst c1) sizes (snd c1) k2 cs2 bs2 = coarsen_cooler (concat blocks) sizes px (k1 * k2) cs bs.
Proof. exact coarsen_compose. Qed.
Print Assumptions C08_coarsen_compose.

Theorem C08_index_table_compose : forall lens k1 k2, 1 <= k1 -> 1 <= k2 -> Forall (fun n => 0 <= n) lens ->
  map (fun v => znth (index_table (map (fun n => cdiv n k1) lens) k2) v 0) (index_table lens k1)
  = index_table lens (k1 * k2).
Proof. exact index_table_compose. Qed.
Print Assumptions C08_index_table_compose.

(** coarsening commutes with merging; merging is specified as the canonical aggregate of the
    concatenated inputs (property C07) *)
Theorem C08_coarsen_merge_commute : forall lens a b k,
  coarsen_spec lens (aggregate (a ++ b)) k = aggregate (coarsen_spec lens a k ++ coarsen_spec lens b k).
Proof. exact coarsen_merge_commute. Qed.
Print Assumptions C08_coarsen_merge_commute.

(** coarsen_cooler(columns=, agg=): value type V (a row of value columns) and aggregation agg : list V -> V.
    The concatenated chunk stream is ONE pandas group-by (ascending keys, values of a group in storage
    order) of the pixels re-keyed by index, for EVERY agg, every valid table, k, chunk size, batch size.
    [shadow px] is the key columns of the table. *)
Theorem C08_coarsen_exact : forall (V : Type) (agg : list V -> V) blocks (px : list (key * V)) k chunksize batchsize,
  1 <= k -> 1 <= chunksize -> 1 <= batchsize -> ValidBlocks blocks ->
  RowSorted (shadow px) -> InRangeRows (zlen (concat blocks)) (shadow px) ->
  coarsen_pixels_g agg (concat blocks) (map chrom_end blocks) px k chunksize batchsize
  = groupby_agg agg (map (grekey (index_table (map zlen blocks) k)) px).
Proof. intros V agg. exact (coarsen_exact agg). Qed.
Print Assumptions C08_coarsen_exact.

(** ... i.e. strictly sorted, exactly the new keys that some old pixel falls into, and each new pixel's value
    is agg of exactly the old values that fall into it, in storage order *)
Theorem C08_coarsen_pixelwise : forall (V : Type) (agg : list V -> V) blocks (px : list (key * V)) k chunksize batchsize,
  1 <= k -> 1 <= chunksize -> 1 <= batchsize -> ValidBlocks blocks ->
  RowSorted (shadow px) -> InRangeRows (zlen (concat blocks)) (shadow px) ->
  let out := coarsen_pixels_g agg (concat blocks) (map chrom_end blocks) px k chunksize batchsize in
  let src := map (grekey (index_table (map zlen blocks) k)) px in
  StronglySorted klt (map fst out) /\
  (forall key, In key (map fst out) <-> In key (map fst src)) /\
  (forall key v, In (key, v) out -> v = agg (map snd (filter (fun p => keqb (fst p) key) src))).
Proof.
  intros V agg blocks px k cs bs Hk Hcs Hbs HV HS Hr out src. unfold out. rewrite coarsen_exact by assumption.
  split; [apply groupby_agg_sorted|]. split; [intro; apply groupby_agg_keys|intros; now apply groupby_agg_value].
Qed.
Print Assumptions C08_coarsen_pixelwise.

Theorem C08_coarsen_exact_chunk_independent : forall (V : Type) (agg : list V -> V) blocks (px : list (key * V)) k cs1 bs1 cs2 bs2,
  1 <= k -> 1 <= cs1 -> 1 <= bs1 -> 1 <= cs2 -> 1 <= bs2 -> ValidBlocks blocks ->
  RowSorted (shadow px) -> InRangeRows (zlen (concat blocks)) (shadow px) ->
  coarsen_pixels_g agg (concat blocks) (map chrom_end blocks) px k cs1 bs1 =
  coarsen_pixels_g agg (concat blocks) (map chrom_end blocks) px k cs2 bs2.
Proof. intros V agg. exact (coarsen_exact_chunk_independent agg). Qed.
Print Assumptions C08_coarsen_exact_chunk_independent.

(** the sum instance is the model of sections 4-5 (Canon / aggregate) *)
Theorem C08_sum_instance : forall t sizes (px : list pixel) k cs bs,
  coarsen_pixels_g sumZ t sizes px k cs bs = coarsen_pixels t sizes px k cs bs.
Proof. exact coarsen_pixels_sum. Qed.
Print Assumptions C08_sum_instance.

(** composition for every aggregation that is permutation invariant and composes over a partition into
    NON-EMPTY blocks (the unguarded law is false for max/min: C08_max_unguarded_refuted) *)
Theorem C08_coarsen_compose_any_agg : forall (V : Type) (agg : list V -> V),
  (forall vs vs', Permutation vs vs' -> agg vs = agg vs') ->
  (forall Gs : list (list V), Forall (fun G => G <> []) Gs -> agg (map agg Gs) = agg (concat Gs)) ->
  forall blocks (px : list (key * V)) k1 k2 cs1 bs1 cs2 bs2 cs bs,
  1 <= k1 -> 1 <= k2 -> 1 <= cs1 -> 1 <= bs1 -> 1 <= cs2 -> 1 <= bs2 -> 1 <= cs -> 1 <= bs ->
  ValidBlocks blocks -> RowSorted (shadow px) -> InRange (zlen (concat blocks)) (shadow px) ->
  let sizes := map chrom_end blocks in
  let c1 := coarsen_cooler_g agg (concat blocks) sizes px k1 cs1 bs1 in
  coarsen_cooler_g agg (fst c1) sizes (snd c1) k2 cs2 bs2 = coarsen_cooler_g agg (concat blocks) sizes px (k1 * k2) cs bs.
Proof. intros V agg Hp Hc. exact (coarsen_compose_g agg Hp (GroupBy.compose_decomp agg Hc)). Qed.
Print Assumptions C08_coarsen_compose_any_agg.

Theorem C08_coarsen_merge_commute_any_agg : forall (V : Type) (agg : list V -> V),
  (forall vs vs', Permutation vs vs' -> agg vs = agg vs') ->
  (forall Gs : list (list V), Forall (fun G => G <> []) Gs -> agg (map agg Gs) = agg (concat Gs)) ->
  forall lens (a b : list (key * V)) k,
  coarsen_spec_g agg lens (groupby_agg agg (a ++ b)) k =
  groupby_agg agg (coarsen_spec_g agg lens a k ++ coarsen_spec_g agg lens b k).
Proof. intros V agg Hp Hc. exact (coarsen_merge_commute_g agg Hp (GroupBy.compose_decomp agg Hc)). Qed.
Print Assumptions C08_coarsen_merge_commute_any_agg.

(** sum, max and min satisfy both laws ... *)
Theorem C08_sum_max_min_compose : forall op,
  (forall vs vs', Permutation vs vs' -> agg_of op vs = agg_of op vs') /\
  (forall Gs : list (list Z), Forall (fun G => G <> []) Gs -> agg_of op (map (agg_of op) Gs) = agg_of op (concat Gs)).
Proof.
  intros op. split; [apply agg_of_perm|].
  destruct op; [apply GroupBy.sumZ_composes|apply agg_max_composes|apply agg_min_composes].
Qed.
Print Assumptions C08_sum_max_min_compose.

(** ... the mean does not (so a chain of mean-coarsenings is NOT the direct mean-coarsening: example below),
    and without the non-emptiness guard max does not either *)
Theorem C08_mean_compose_refuted :
  ~ (forall Gs : list (list Z), Forall (fun G => G <> []) Gs -> agg_mean (map agg_mean Gs) = agg_mean (concat Gs)).
Proof. intros H. specialize (H [[1]; [3; 5]] ltac:(repeat constructor; discriminate)). vm_compute in H. discriminate. Qed.
Print Assumptions C08_mean_compose_refuted.

Theorem C08_max_unguarded_refuted : exists Gs, agg_max (map agg_max Gs) <> agg_max (concat Gs).
Proof. exists [[]; [-5]]. vm_compute. discriminate. Qed.
Print Assumptions C08_max_unguarded_refuted.

Theorem C08_hypotheses_decidable : forall blocks px,
  valid_blocks_b blocks = true -> ssorted_b px = true -> inrange_b (zlen (concat blocks)) px = true ->
  ValidBlocks blocks /\ RowSorted px /\ InRange (zlen (concat blocks)) px /\ InRangeRows (zlen (concat blocks)) px.
Proof.
  intros blocks px H1 H2 H3. split; [now apply valid_blocks_b_sound|]. split; [now apply ssorted_b_rowsorted|].
  split; [now apply inrange_b_sound|now apply inrange_rows, inrange_b_sound].
Qed.
Print Assumptions C08_hypotheses_decidable.

Definition ex_blocks : list (list bin) := [[(0,0,10);(0,10,20);(0,20,35)]; [(1,0,7);(1,7,9)]].
Definition ex_px : list pixel := [((0,0),1);((0,2),2);((1,1),3);((1,4),1);((2,3),5);((3,3),1);((3,4),2)].

(** a variable-width table (longer last bin, defect D1) with a chromosome shorter than k: hypotheses hold,
    the stream has several chunks and equals the index-based aggregate *)
Example ex_C08_hypotheses :
  valid_blocks_b ex_blocks = true /\ ssorted_b ex_px = true /\ inrange_b (zlen (concat ex_blocks)) ex_px = true.
Proof. vm_compute. repeat split; reflexivity. Qed.

Example ex_C08_coarsen :
  coarsen_cooler (concat ex_blocks) (map chrom_end ex_blocks) ex_px 2 1 1 =
    ([(0,0,20);(0,20,35);(1,0,9)], [((0,0),4);((0,1),2);((0,2),1);((1,2),5);((2,2),3)]) /\
  coarsener_edges (concat ex_blocks) ex_px 2 1 = [0; 4; 5; 7] /\
  rebin_table (concat ex_blocks) (map chrom_end ex_blocks) 2 = [0; 0; 1; 2; 2] /\
  get_binsize (coarsen_bins (concat ex_blocks) (map chrom_end ex_blocks) 2) = Some 20.
Proof. vm_compute. repeat split; reflexivity. Qed.

(** a variable table whose k=2 coarsening reports a fixed size: the division path is taken *)
Example ex_C08_division_path :
  let blocks := [[(0,0,3);(0,3,10);(0,10,13);(0,13,20)]; [(1,0,5);(1,5,10)]] in
  valid_blocks_b blocks = true /\ get_binsize (concat blocks) = None /\
  get_binsize (coarsen_bins (concat blocks) (map chrom_end blocks) 2) = Some 10 /\
  rebin_table (concat blocks) (map chrom_end blocks) 2 = [0; 0; 1; 1; 2; 2].
Proof. vm_compute. repeat split; reflexivity. Qed.

(** a variable table whose coarsening is variable too: the searchsorted path is taken *)
Example ex_C08_search_path :
  let blocks := [[(0,0,3);(0,3,11);(0,11,15);(0,15,21);(0,21,30)]; [(1,0,4)]] in
  valid_blocks_b blocks = true /\
  get_binsize (coarsen_bins (concat blocks) (map chrom_end blocks) 2) = None /\
  coarsen_bins (concat blocks) (map chrom_end blocks) 2 = [(0,0,11);(0,11,21);(0,21,30);(1,0,4)] /\
  rebin_table (concat blocks) (map chrom_end blocks) 2 = [0; 0; 1; 1; 2; 3].
Proof. vm_compute. repeat split; reflexivity. Qed.

Example ex_C08_prune :
  greedy_prune_partition [0; 2; 2; 5; 7; 7] 3 = [0; 5; 7] /\ greedy_prune_partition [0; 0; 0] 4 = [0].
Proof. vm_compute. split; reflexivity. Qed.

(** max through the same stream: three chunks, the new pixel (0,0) is the max of the three old values *)
Example ex_C08_max :
  coarsen_cooler_g agg_max (concat ex_blocks) (map chrom_end ex_blocks) ex_px 2 1 1 =
    ([(0,0,20);(0,20,35);(1,0,9)], [((0,0),3);((0,1),2);((0,2),1);((1,2),5);((2,2),2)]).
Proof. vm_compute. reflexivity. Qed.

(** mean: k=2 then k=2 differs from k=4 on a concrete valid cooler (values 1 | 3, 5) *)
Example ex_C08_mean_chain_refuted :
  let blocks := [[(0,0,1);(0,1,2);(0,2,3);(0,3,4)]] in
  let px := [((0,0),1);((0,2),3);((1,3),5)] in
  let sizes := map chrom_end blocks in
  valid_blocks_b blocks = true /\ ssorted_b px = true /\
  let c1 := coarsen_cooler_g agg_mean (concat blocks) sizes px 2 1 1 in
  snd (coarsen_cooler_g agg_mean (fst c1) sizes (snd c1) 2 1 1) = [((0,0),2)] /\
  snd (coarsen_cooler_g agg_mean (concat blocks) sizes px 4 1 1) = [((0,0),3)].
Proof. vm_compute. repeat split; reflexivity. Qed.

(** the coarsener locates a pixel's new bin with float64 true division, [np.floor(start / binsize)]
    (_reduce.py:616-617); for coordinates and bin sizes below 2^53 that is the exact floor division of the model
    (Proofs/FloatDiv.v, Flocq).  Depends on the standard library's real-number axioms only. *)
From Cooler Require Import Proofs.FloatDiv Proofs.FloatDivBridge.
From Flocq Require Import Core.
Theorem C08_binary64_relative_bin_exact : forall start b : Z,
  0 <= start < 2^53 -> 0 < b < 2^53 -> Zfloor (fdiv start b) = start / b.
Proof. exact floor_fdiv_exact. Qed.
Print Assumptions C08_binary64_relative_bin_exact.

(** ---- what a user reads from the coarsened cooler (composition with C02 and C03): the dense range query on the
    k-fold coarsened collection — every window of coarse bins, every read chunk size, every coarsening chunk / batch
    size — is the symmetric completion of the base's stored pixels re-keyed by the bin-index table: cell (I, J) is the
    sum of the stored values of all base pixels falling into coarse pixel {I, J}. *)
From Cooler Require Import Model.Query Proofs.QueryProofs Proofs.HistoryProofs Proofs.CoarsenQuery.
Theorem C08_coarsen_then_dense_query : forall blocks (c : Index.cooler) k chunksize batchsize cs i0 i1 j0 j1,
  EntryOK (blocks, c) -> Index.symmetric_upper c = true -> 1 <= k -> 1 <= chunksize -> 1 <= batchsize -> 1 <= cs ->
  let nb := map (coarsen_block k) blocks in
  let n' := zlen (concat nb) in
  0 <= i0 -> i0 <= i1 -> i1 <= n' -> 0 <= j0 -> j0 <= j1 -> j1 <= n' ->
  exists c' out,
    Index.create_model (zlen nb) (map bchrom (concat nb))
                 (snd (coarsen_cooler (concat blocks) (map chrom_end blocks) (Index.pixels_of c) k chunksize batchsize)) true = Some c' /\
    fill_lower_query (epx_of (Index.pixels_of c')) (Index.bin1_offset c') (get_spans (Index.bin1_offset c') cs) (i0, i1, j0, j1) = Some out /\
    dense_of out (i0, i1, j0, j1) =
    map (fun I => map (fun J => symm (map (rekey (index_table (map zlen blocks) k)) (Index.pixels_of c)) I J)
                      (zrange j0 (Z.to_nat (j1 - j0))))
        (zrange i0 (Z.to_nat (i1 - i0))).
Proof. exact coarsen_then_dense_query. Qed.
Print Assumptions C08_coarsen_then_dense_query.

(** the float64 quotient expression of CoolerCoarsener._aggregate that the binary64 theorem above is about is pinned in the source on every run
    (tools/py2v.py): a reciprocal multiplication or another shortcut is a different computation *)
From Cooler Require Import Gen.Translated.
Theorem C08_float_division_source_pins : Gen.float_division_pins_coarsen = true.
Proof. reflexivity. Qed.
Print Assumptions C08_float_division_source_pins.

(** C20  Generated bin tables tile the genome; a reported bin size is always true.
    Statements.  A proof here is [exact] of the lemma with the same statement, a few lines from the general lemmas, or an evaluation for a concrete witness;
    the lemmas are in Proofs/BinsProofs.v (Proofs/FloatDivBridge.v for the binary64 bin count, Proofs/GenBridgeBins.v for the source tie). *)
From Cooler Require Import Model.Bins Proofs.BinsProofs.

(** binnify, one chromosome: exactly the bins [k*b, min((k+1)*b, L)), k < ceil(L/b) *)
Theorem C20_binnify_chrom_exact : forall c L b,
  1 <= L -> 1 <= b ->
  binnify_chrom c L b = map (ideal_bin c L b) (zrange 0 (Z.to_nat (cdiv L b))).
Proof. exact binnify_chrom_spec. Qed.
Print Assumptions C20_binnify_chrom_exact.

(** binnify, whole table: per chromosome in the given order *)
Theorem C20_binnify_in_order : forall sizes b,
  Forall (fun L => 1 <= L) sizes -> 1 <= b ->
  binnify sizes b = concat (binnify_blocks sizes b) /\
  length (binnify_blocks sizes b) = length sizes /\
  forall i L, nth_error sizes i = Some L ->
    nth_error (binnify_blocks sizes b) i = Some (ideal_chrom (Z.of_nat i) L b).
Proof. intros sizes b HL Hb. split; [reflexivity|]. now apply binnify_blocks_spec. Qed.
Print Assumptions C20_binnify_in_order.

(** the generated table is a valid tiling and its last bins end at the chromosome lengths *)
Theorem C20_binnify_tiles : forall sizes b,
  Forall (fun L => 1 <= L) sizes -> 1 <= b ->
  ValidBlocks (binnify_blocks sizes b) /\ map chrom_end (binnify_blocks sizes b) = sizes.
Proof. exact binnify_valid. Qed.
Print Assumptions C20_binnify_tiles.

(** a reported bin size is true: every chromosome of the table is the ideal fixed-width tiling *)
Theorem C20_binsize_truthful : forall blocks b,
  ValidBlocks blocks -> get_binsize (concat blocks) = Some b ->
  1 <= b /\
  forall i blk, nth_error blocks i = Some blk ->
    blk = map (ideal_bin (Z.of_nat i) (chrom_end blk) b) (zrange 0 (Z.to_nat (cdiv (chrom_end blk) b))).
Proof. exact binsize_truthful. Qed.
Print Assumptions C20_binsize_truthful.

Theorem C20_fixed_table_determined : forall blocks1 blocks2 b,
  ValidBlocks blocks1 -> ValidBlocks blocks2 ->
  get_binsize (concat blocks1) = Some b -> get_binsize (concat blocks2) = Some b ->
  map chrom_end blocks1 = map chrom_end blocks2 -> blocks1 = blocks2.
Proof. exact fixed_table_determined. Qed.
Print Assumptions C20_fixed_table_determined.

(** inferred chromosome lengths are the ends of the last bins, in order *)
Theorem C20_chromsizes_spec : forall blocks,
  ValidBlocks blocks ->
  get_chromsizes (concat blocks) = combine (zrange 0 (length blocks)) (map chrom_end blocks).
Proof. exact chromsizes_spec. Qed.
Print Assumptions C20_chromsizes_spec.

(** the hypothesis ValidBlocks is decidable by the executable check used in the correspondence run *)
Theorem C20_valid_check_sound : forall blocks, valid_blocks_b blocks = true -> ValidBlocks blocks.
Proof. exact valid_blocks_b_sound. Qed.
Print Assumptions C20_valid_check_sound.

(** non-vacuity: a concrete valid table that reports a size, and one (longer last bin, the
    repaired defect D1) that must not *)
Example ex_C20_reports :
  valid_blocks_b [[(0,0,10);(0,10,20);(0,20,25)]; [(1,0,7)]] = true /\
  get_binsize (concat [[(0,0,10);(0,10,20);(0,20,25)]; [(1,0,7)]]) = Some 10.
Proof. vm_compute. split; reflexivity. Qed.
Example ex_C20_longer_last_not_fixed :
  valid_blocks_b [[(0,0,10);(0,10,20);(0,20,35)]] = true /\
  get_binsize (concat [[(0,0,10);(0,10,20);(0,20,35)]]) = None.
Proof. vm_compute. split; reflexivity. Qed.

(** binnify computes the number of bins with float64 true division, [int(np.ceil(clen / binsize))]; for lengths and bin
    sizes below 2^53 that is the exact ceiling division the model uses (Proofs/FloatDiv.v, Flocq: [fdiv] is the
    correctly rounded binary64 quotient).  Depends on the standard library's real-number axioms only. *)
From Cooler Require Import Proofs.FloatDiv Proofs.FloatDivBridge.
From Flocq Require Import Core.
Theorem C20_binary64_bin_count_exact : forall clen b : Z,
  0 <= clen < 2^53 -> 0 < b < 2^53 -> Zceil (fdiv clen b) = cdiv clen b.
Proof. exact ceil_fdiv_is_cdiv. Qed.
Print Assumptions C20_binary64_bin_count_exact.

(** the float64 quotient expression of util.binnify that the binary64 theorem above is about is pinned in the source on every run
    (tools/py2v.py): a reciprocal multiplication or another shortcut is a different computation *)
From Cooler Require Import Gen.Translated.
Theorem C20_float_division_source_pins : Gen.float_division_pins_binnify = true.
Proof. reflexivity. Qed.
Print Assumptions C20_float_division_source_pins.

(** util.get_binsize as translated from util.py on every run (the loop over the per-chromosome groups with its early
    exit, the two sets and the three decisions `len(sizes) > 1`, `len(sizes) == 1`, `max(last_sizes) > binsize`) computes
    the model's [get_binsize] on every bin table: C20_binsize_truthful is therefore a statement about the source's own
    decision procedure.  The set-building statements and the control-flow shape are pinned by the translator. *)
From Cooler Require Import Proofs.GenBridgeBins.
Theorem C20_source_get_binsize_is_model : forall t,
  Gen.get_binsize (map (fun c => map bwidth (rows_of t c)) (chroms_of t)) = get_binsize t.
Proof. exact gen_get_binsize_is_model. Qed.
Print Assumptions C20_source_get_binsize_is_model.

Theorem C20_get_binsize_source_pins : Gen.get_binsize_source_pins = true.
Proof. reflexivity. Qed.
Print Assumptions C20_get_binsize_source_pins.

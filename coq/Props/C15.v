(** C15  File-level operations preserve content and touch nothing else.
    Statements about the object-store model (Model/H5.v), the general ones each closed by a lemma of Proofs/H5Proofs.v (Proofs/ScoolProofs.v
    for [create] in append mode) or derived from one in a line or two, those about one concrete store by evaluation.  [world_le w w'] = every object of both files is still there with the
    same attributes/payload and every link it had (links and objects were only added). *)
From Cooler Require Import Model.H5 Model.Scool Proofs.H5Proofs Proofs.ScoolProofs.

(** path resolution is monotone: adding links/objects never changes what an already resolving
    path denotes (aliasing through hard, soft and external links included) *)
Theorem C15_resolution_monotone : forall w w' f p f1 o1,
  world_le w w' -> resolves w f p f1 o1 -> resolves w' f p f1 o1.
Proof. intros w w' f p f1 o1. apply resolves_mono. Qed.
Print Assumptions C15_resolution_monotone.

(** frame of cp / ln / ln -s (no overwrite flag), whatever the outcome (success or any error):
    nothing is removed or modified in either file *)
Theorem C15_copy_link_frame : forall w sf sp df dp link soft e w',
  _copy w sf sp df dp false link false soft = (e, w') ->
  (sf = df \/ dp <> [] \/ link = true \/ soft = true) ->
  world_le w w'.
Proof. exact copy_frame. Qed.
Print Assumptions C15_copy_link_frame.

(** the root-destination special case of a cross-file copy additionally updates the root attributes *)
Theorem C15_copy_root_frame : forall w sf sp df e w', sf <> df ->
  _copy w sf sp df [] false false false false = (e, w') ->
  exists w2 a, world_le w w2 /\ (w' = w2 \/ w' = set_attrs w2 df 0%nat a).
Proof.
  intros w sf sp df e w' Hne H. pose proof (copy_le w sf sp df [] false false) as L.
  rewrite H in L. destruct L as [L|(_ & _ & _ & _ & w2 & a & L & E)]; [exists w', []|exists w2, a]; auto.
Qed.
Print Assumptions C15_copy_root_frame.

(** ln (hard): the destination path denotes the very object the source denoted *)
Theorem C15_ln_same_object : forall w f sp dp w',
  ln w f sp f dp false false = (Ok, w') ->
  exists fo o, resolve w f sp = Found fo o /\ resolves w' f dp fo o /\ world_le w w'.
Proof. exact ln_spec. Qed.
Print Assumptions C15_ln_same_object.

(** cp onto a non-root destination of an existing file: the destination resolves to a NEW object that dumps
    - structure, attributes, payloads, link values, sharing pattern - exactly as the source object did
    ([shift_entry k] only renames object ids by +k), and nothing else changed *)
Theorem C15_cp_reads_as_source : forall w sf sp df dp w',
  file_exists w df = true -> (sf = df \/ dp <> []) ->
  cp w sf sp df dp false = (Ok, w') ->
  exists fs o k,
    resolve w sf sp = Found fs o /\ resolves w' df dp df (o + k) /\
    (forall d pre, dump d w' df (o + k) pre = map (shift_entry k) (dump d w fs o pre)) /\
    world_le w w'.
Proof. exact cp_spec. Qed.
Print Assumptions C15_cp_reads_as_source.

(** a refused cp or ln -s (no overwrite flag, existing destination file, not the root-destination case)
    leaves both files exactly as they were *)
Theorem C15_error_leaves_files_unchanged : forall w sf sp df dp soft e w',
  file_exists w df = true -> (sf = df \/ dp <> [] \/ soft = true) ->
  _copy w sf sp df dp false false false soft = (e, w') -> e <> Ok -> w' = w.
Proof. exact copy_error_unchanged. Qed.
Print Assumptions C15_error_leaves_files_unchanged.

(** mv within a file: after a successful move the source name is unbound in its parent group
    (partial: without a guard the "destination reads as the source" half is FALSE for destinations inside
    the moved group, C15_mv_spec_refuted below; under [mv_guard] it holds, C15_mv_spec) *)
Theorem C15_mv_source_unbound_partial : forall w f sp dp w',
  mv w f sp f dp false = (Ok, w') ->
  exists w2 par n fp gp, sp = par ++ [n] /\ del_link w2 f sp = (Ok, w') /\ world_le w w2 /\
    resolve w2 f par = Found fp gp /\ lookup_link w' fp gp n = None.
Proof. exact mv_source_unbound. Qed.
Print Assumptions C15_mv_source_unbound_partial.

(** mv under its guard.  [mv_guard w f sp dp] is the decidable condition: in the store AFTER the new hard link
    is made, the traversal of the destination path does not pass through the source's own link slot (the
    source's parent group, the source name); it is false exactly for destinations inside the moved group or
    behind a link back to it (D23) and for a root source.  [walk_av s] = path resolution that refuses slot s.
    Then: the destination resolves to THE VERY OBJECT the source denoted, the source name is unbound, and every
    traversal - from any start object, of any path, with any budget - that avoided the slot resolves as before *)
Theorem C15_mv_spec : forall w f sp dp w',
  mv w f sp f dp false = (Ok, w') -> mv_guard w f sp dp = true ->
  exists fo o par n fp gp,
    resolve w f sp = Found fo o /\ resolve w' f dp = Found fo o /\
    sp = par ++ [n] /\ lookup_link w' fp gp n = None /\
    forall k x f0 o0 q f1 o1, walk_av (fp, gp, n) k w x f0 o0 q = Found f1 o1 -> walk k w' x f0 o0 q = Found f1 o1.
Proof. exact mv_spec. Qed.
Print Assumptions C15_mv_spec.

Theorem C15_avoiding_resolution_is_resolution : forall s k w x f o p f1 o1,
  walk_av s k w x f o p = Found f1 o1 -> walk k w x f o p = Found f1 o1.
Proof. intros. eapply walk_av_kept; eauto using kept_refl. Qed.
Print Assumptions C15_avoiding_resolution_is_resolution.

(** re-creating (append mode) at an OCCUPIED non-root path (the first create_group is refused;
    the parent traversal does not pass through the occupied link itself): the name is rebound to a NEW group
    that holds exactly the tables of the new collection - nothing of the old one - and every traversal that
    avoided that link resolves exactly as before *)
Theorem C15_recreate_replaces : forall w f p spec w' par n fp gp e0 w0 t0,
  file_exists w f = true -> create_group w f p = (e0, w0, t0) -> e0 = EValue ->
  split_last p = Some (par, n) -> resolve w f par = Found fp gp ->
  walk_av (fp, gp, n) FUEL w false f 0 par = Found fp gp ->
  create w f p false spec = (Ok, w') ->
  exists g, child w' fp gp n = Some g /\
    (forall m src, In (m, src) (cs_tables spec) -> table_ok w' fp g m src) /\
    (forall m l, lookup_link w' fp g m = Some l -> In m (map fst (cs_tables spec))) /\
    (forall k x f0 o0 q f1 o1, walk_av (fp, gp, n) k w x f0 o0 q = Found f1 o1 -> walk k w' x f0 o0 q = Found f1 o1).
Proof. exact recreate_replaces. Qed.
Print Assumptions C15_recreate_replaces.

(** recognition is total: never an error ... *)
Theorem C15_is_cooler_never_raises : forall w f p e, is_cooler w f p <> TRaise e.
Proof. exact is_cooler_never_raises. Qed.
Print Assumptions C15_is_cooler_never_raises.

(** ... true exactly on member paths that resolve to an object tagged as a cooler ... *)
Theorem C15_is_cooler_true_iff : forall w f p,
  is_cooler w f p = TTrue <->
  file_exists w f = true /\ contains w f p = TTrue /\
  exists f1 o x, resolve w f p = Found f1 o /\ obj_at w f1 o = Some x /\ is_cooler_obj x = true.
Proof. exact is_cooler_true_iff. Qed.
Print Assumptions C15_is_cooler_true_iff.

(** ... and false for a path that is not a member path (D5) or does not resolve (D25) *)
Theorem C15_is_cooler_false_elsewhere : forall w f p,
  (contains w f p <> TTrue \/ (forall f1 o, resolve w f p <> Found f1 o)) -> is_cooler w f p = TFalse.
Proof. exact is_cooler_false_elsewhere. Qed.
Print Assumptions C15_is_cooler_false_elsewhere.

(** listing, partial correctness: whenever list_coolers returns at all, it lists exactly the objects
    reachable through group members ([reach]: each member opened on its own, named as h5py names it)
    that are tagged as coolers, plus "/" when the root is one *)
Theorem C15_listing_exact_when_it_returns : forall w f L, list_coolers w f = (Ok, L) ->
  forall p, In p L <->
    (p = [] /\ is_cooler_at w f 0 = true) \/
    (exists f2 o2, reach w f 0 [] p f2 o2 /\ is_cooler_at w f2 o2 = true).
Proof. exact listing_exact_reach. Qed.
Print Assumptions C15_listing_exact_when_it_returns.

(** in a file without external links, if the listing returns (no link cycle, no dangling
    member) it is exactly the set of paths that resolve - by the file's own path resolution, with any
    budget - to an object tagged as a cooler *)
Theorem C15_listing_exact : forall w f L, no_ext w f -> nodup_keys w f -> list_coolers w f = (Ok, L) ->
  forall p, In p L <-> exists o2, resolves w f p f o2 /\ is_cooler_at w f o2 = true.
Proof. exact listing_exact. Qed.
Print Assumptions C15_listing_exact.

(** totality: [ranked w rk] = the member graph is acyclic (rk strictly decreases along every member that opens),
    [all_open w] = no member dangles or loops.  A budget above the rank of the start object suffices ... *)
Theorem C15_traversal_terminates : forall w rk, ranked w rk -> all_open w ->
  forall k f o name, (rk f o < k)%nat -> fst (visit k w f o name) = Ok.
Proof. exact visit_total. Qed.
Print Assumptions C15_traversal_terminates.

(** ... so on that domain (depth below the interpreter's recursion budget) list_coolers is TOTAL, and without
    external links it returns exactly the paths that resolve to a cooler-tagged object *)
Theorem C15_listing_total_exact : forall w rk f, ranked w rk -> all_open w -> file_exists w f = true ->
  (rk f 0 < VISIT_FUEL)%nat -> no_ext w f -> nodup_keys w f ->
  exists L, list_coolers w f = (Ok, L) /\
            forall p, In p L <-> exists o2, resolves w f p f o2 /\ is_cooler_at w f o2 = true.
Proof.
  intros w rk f Hr Ha Hex Hk Hne Hnd. destruct (listing_total _ _ _ Hr Ha Hex Hk) as (L & HL).
  exists L. split; auto. now apply listing_exact.
Qed.
Print Assumptions C15_listing_total_exact.

Theorem C15_rank_check_sound : forall w rk, file_ranked_b w rk FA = true -> file_ranked_b w rk FB = true ->
  ranked w rk /\ all_open w.
Proof. exact file_ranked_b_sound. Qed.
Print Assumptions C15_rank_check_sound.

Theorem C15_wellformed_check_sound : forall w f, file_wf_b w f = true -> no_ext w f /\ nodup_keys w f.
Proof. exact file_wf_b_sound. Qed.
Print Assumptions C15_wellformed_check_sound.

(** append-create at a path whose last name is free keeps every link and every dataset of both files *)
Theorem C15_create_append_frame : forall w f p spec w1 tgt e w',
  file_exists w f = true -> create_group w f p = (Ok, w1, tgt) ->
  create w f p false spec = (e, w') -> keeps w w'.
Proof. exact create_append_frame. Qed.
Print Assumptions C15_create_append_frame.

(** write mode replaces the file: the result does not depend on what the file held *)
Theorem C15_create_w_replaces : forall w f p spec,
  create w f p true spec = create (set_store w f None) f p true spec.
Proof. exact create_w_replaces. Qed.
Print Assumptions C15_create_w_replaces.

(** f::g and f::/g denote the same group path *)
Theorem C15_uri_slash : forall g, path_of_string (uri_group g) = path_of_string g.
Proof. exact uri_slash. Qed.
Print Assumptions C15_uri_slash.

(** The full statements are false of the faithful model (known findings); each refutation below quotes the statement it refutes. *)

(** "listing = exactly the collections held" fails on a hard link to an ancestor (D14a): the traversal
    never terminates within its budget (RecursionError) although /a/b is a collection *)
Theorem C15_listing_exact_refuted_cycle :
  list_coolers w_cycle FA = (ERecursion, []) /\ is_cooler w_cycle FA ["a"; "b"]%string = TTrue.
Proof. vm_compute. split; reflexivity. Qed.
Print Assumptions C15_listing_exact_refuted_cycle.

(** ... and no budget would do: the traversal of that file fails for EVERY fuel (the real RecursionError
    does not depend on the interpreter's recursion limit) *)
Theorem C15_listing_cycle_no_fuel_suffices : forall k name, fst (visit k w_cycle FA 0 name) <> Ok.
Proof. exact listing_cycle_no_fuel. Qed.
Print Assumptions C15_listing_cycle_no_fuel_suffices.

(** ... on an external link (D14b): /e is a collection of file B but the listing reports /x *)
Theorem C15_listing_exact_refuted_external :
  list_coolers w_ext FB = (Ok, [sx]) /\ is_cooler w_ext FB ["e"%string] = TTrue /\ is_cooler w_ext FB sx = TFalse.
Proof. vm_compute. repeat split; reflexivity. Qed.
Print Assumptions C15_listing_exact_refuted_external.

(** ... on a dangling link (D14c): the listing raises although /z is a collection *)
Theorem C15_listing_exact_refuted_dangling :
  list_coolers w_dangling FA = (EAttr, []) /\ is_cooler w_dangling FA ["z"%string] = TTrue /\
  is_cooler w_dangling FA ["y"%string] = TFalse.
Proof. vm_compute. repeat split; reflexivity. Qed.
Print Assumptions C15_listing_exact_refuted_dangling.

(** "after mv the destination reads as the source" fails for a destination inside the moved group (D23) *)
Theorem C15_mv_spec_refuted :
  let w := run world0 [OCreate FA sx false (tiny 1)] in
  let r := mv w FA sx FA sxy false in
  fst r = Ok /\ resolve (snd r) FA sxy = Missing true /\
  resolve (snd r) FA sx = Missing false /\ list_coolers (snd r) FA = (Ok, []).
Proof. vm_compute. repeat split; reflexivity. Qed.
Print Assumptions C15_mv_spec_refuted.

(** "a failed operation leaves both files unchanged" fails for mv of the root collection (D24) ... *)
Theorem C15_error_frame_refuted_mv_root :
  let w := run world0 [OCreate FA [] false (tiny 1)] in
  let r := mv w FA [] FA sx false in
  fst r = EKey /\ is_cooler w FA sx = TFalse /\ is_cooler (snd r) FA sx = TTrue.
Proof. vm_compute. repeat split; reflexivity. Qed.
Print Assumptions C15_error_frame_refuted_mv_root.

(** ... for a cross-file copy onto an occupied ROOT, which fails midway (D29) ... *)
Theorem C15_error_frame_refuted_root_copy :
  let w := run world0 [OCreate FA [] false (tiny 1); OCreate FA ["c10"%string] false (tiny 2);
                       OCreate FA ["c2"%string] false (tiny 4); OCreate FB ["c2"%string] false (tiny 3)] in
  let r := cp w FA [] FB [] false in
  fst r = ERuntime /\ is_cooler w FB ["c10"%string] = TFalse /\ is_cooler (snd r) FB ["c10"%string] = TTrue.
Proof. vm_compute. repeat split; reflexivity. Qed.
Print Assumptions C15_error_frame_refuted_root_copy.

(** ... and under the overwrite flag (documented: the destination file is truncated first) *)
Theorem C15_error_frame_refuted_overwrite :
  let w := run world0 [OCreate FA sx false (tiny 1); OCreate FB sx false (tiny 2)] in
  let r := ln w FA sx FB ["y"%string] false true in
  fst r = EOS /\ is_cooler w FB sx = TTrue /\ is_cooler (snd r) FB sx = TFalse.
Proof. vm_compute. repeat split; reflexivity. Qed.
Print Assumptions C15_error_frame_refuted_overwrite.

(** "a soft link reads as its source" fails when the destination lies behind an external link (D26) *)
Theorem C15_ln_soft_refuted_behind_external :
  let w := run world0 [OCreate FA sxy false (tiny 1); OCreate FB ["z"%string] false (tiny 2);
                       OCopy FA sxy FB sx false false false true] in
  let r := ln w FB ["z"%string] FB sxy true false in
  fst r = Ok /\ is_cooler w FB ["z"%string] = TTrue /\ is_cooler (snd r) FB sxy = TFalse /\
  lookup_link (snd r) FA 2%nat "y"%string = Some (Soft ["z"%string]).
Proof. vm_compute. repeat split; reflexivity. Qed.
Print Assumptions C15_ln_soft_refuted_behind_external.

(** non-vacuity: a concrete successful hard link *)
Example ex_C15_ln :
  let w := run world0 [OCreate FA sx false (tiny 1)] in
  let r := ln w FA sx FA ["z"%string] false false in
  fst r = Ok /\ resolve (snd r) FA ["z"%string] = resolve w FA sx /\ resolve w FA sx = Found FA 1%nat.
Proof. vm_compute. repeat split; reflexivity. Qed.

(** non-vacuity of C15_listing_exact: a well-formed file (collection, soft link to it, nested collection) *)
Example ex_C15_listing :
  file_wf_b w_listed FA = true /\
  list_coolers w_listed FA = (Ok, [sx; sxy; ["y"%string]; ["y"; "y"]%string]).
Proof. vm_compute. split; reflexivity. Qed.

(** non-vacuity of C15_mv_spec / C15_recreate_replaces / C15_listing_total_exact *)
Example ex_C15_mv_guard :
  let w := run world0 [OCreate FA sx false (tiny 1); OCreate FA sxy false (tiny 2)] in
  mv_guard w FA sx ["z"%string] = true /\ fst (mv w FA sx FA ["z"%string] false) = Ok /\
  mv_guard w FA sx sxy = false /\ mv_guard w FA sx ["x"; "q"]%string = false.
Proof. vm_compute. repeat split; reflexivity. Qed.
Example ex_C15_recreate :
  let w := run world0 [OCreate FA sx false (tiny 1); OCreate FA sxy false (tiny 2); OCreate FA ["z"%string] false (tiny 3)] in
  let r := create w FA sx false (tiny 9) in
  fst (fst (create_group w FA sx)) = EValue /\ fst r = Ok /\
  is_cooler (snd r) FA sx = TTrue /\ is_cooler w FA sxy = TTrue /\ is_cooler (snd r) FA sxy = TFalse /\
  walk_av (FA, 0%nat, "x"%string) FUEL w false FA 0 [] = Found FA 0%nat /\
  resolve (snd r) FA ["z"%string] = resolve w FA ["z"%string].
Proof. vm_compute. repeat split; reflexivity. Qed.
Example ex_C15_listing_total :
  file_ranked_b w_listed (height 12 w_listed) FA = true /\ file_ranked_b w_listed (height 12 w_listed) FB = true /\
  Nat.ltb (height 12 w_listed FA 0) VISIT_FUEL = true /\ file_wf_b w_listed FA = true.
Proof. vm_compute. repeat split; reflexivity. Qed.

(** C17  Every cell of a single-cell file reads back as the matrix given for it.
    Statements about the model of create_scool over the object store (Model/Scool.v, Model/H5.v),
    the general ones each a lemma of Proofs/ScoolProofs.v or a part of one, the example by evaluation.
    [cell_ok w f rc o1 o2 o3 c]: /cells/<name of c> is a group whose chroms table IS the object rc, whose
    bins table has the objects o1 o2 o3 as chrom/start/end plus c's own extra columns with c's payloads,
    and whose pixels and indexes tables hold exactly the columns given for c.
    [keeps w w']: every link that could be looked up and every dataset object is unchanged. *)
From Cooler Require Import Model.Scool Proofs.H5Proofs Proofs.ScoolProofs.

(** appending one cell on a fresh name keeps everything that was readable (frame) and writes its tables *)
Theorem C17_append_cell_frame : forall w f a0 ls0 name sp w',
  file_exists w f = true -> obj_at w f 0 = Some (Group a0 ls0) -> cell_fresh w f ls0 name ->
  create w f ["cells"%string; name] false sp = (Ok, w') ->
  keeps w w' /\
  exists gc g, child w' f 0 "cells"%string = Some gc /\ child w' f gc name = Some g /\
               (forall g0, assoc "cells"%string ls0 = Some (Hard g0) -> gc = g0) /\
               forall n src, In (n, src) (cs_tables sp) -> table_ok w' f g n src.
Proof.
  intros w f a0 ls0 name sp w' Hex E0 Hfresh H.
  destruct (create_cell _ _ _ _ _ _ _ Hex E0 Hfresh H) as (gc & g & K & _ & H1 & H2 & H3 & H4 & _). eauto 7.
Qed.
Print Assumptions C17_append_cell_frame.

(** ... and adds exactly one member to /cells *)
Theorem C17_append_cell_adds_one_name : forall w f a0 ls0 name sp w' gc,
  file_exists w f = true -> obj_at w f 0 = Some (Group a0 ls0) -> cell_fresh w f ls0 name ->
  create w f ["cells"%string; name] false sp = (Ok, w') ->
  child w' f 0 "cells"%string = Some gc ->
  forall m l, lookup_link w' f gc m = Some l ->
    m = name \/ exists g0, assoc "cells"%string ls0 = Some (Hard g0) /\ lookup_link w f g0 m = Some l.
Proof.
  intros w f a0 ls0 name sp w' gc Hex E0 Hfresh H Hgc.
  destruct (create_cell _ _ _ _ _ _ _ Hex E0 Hfresh H) as (gc' & g & _ & _ & H1 & _ & _ & _ & H5 & _).
  rewrite Hgc in H1. injection H1 as <-. exact H5.
Qed.
Print Assumptions C17_append_cell_adds_one_name.

(** induction over the cell list: creating cell B leaves cell A as it was *)
Theorem C17_all_cells_by_induction : forall cells w f rc rb o1 o2 o3 done w',
  root_ok w f rc rb o1 o2 o3 -> cells_state w f done ->
  NoDup (done ++ map c_name cells) ->
  append_cells w f cells = (Ok, w') ->
  keeps w w' /\ (forall c, In c cells -> cell_ok w' f rc o1 o2 o3 c) /\
  cells_state w' f (done ++ map c_name cells).
Proof.
  intros cells w f rc rb o1 o2 o3 done w' HR HS Hnd H.
  destruct (append_cells_all _ _ _ _ _ _ _ _ _ _ HR HS Hnd H) as (K & _ & HS' & Hc).
  split; auto. split; auto. intros c Hin. now apply Hc.
Qed.
Print Assumptions C17_all_cells_by_induction.

(** the property: for distinct names, create_scool (mode "w") gives a file in which the common tables are
    stored once at the root with the given payloads, EVERY cell reads back as given with chroms and the
    three bin columns being the root's own objects, and /cells has no member besides the given names *)
Theorem C17_every_cell_reads_back : forall w f rchroms rbins rattrs cells w' dc ds de,
  create_scool w f true rchroms rbins rattrs cells = (Ok, w') ->
  NoDup (map c_name cells) ->
  In ("chrom"%string, dc) rbins -> In ("start"%string, ds) rbins -> In ("end"%string, de) rbins ->
  exists rc rb o1 o2 o3,
    root_ok w' f rc rb o1 o2 o3 /\
    (forall k d, In (k, d) rchroms -> ds_at w' f rc k = Some d) /\
    (forall k d, In (k, d) rbins -> ds_at w' f rb k = Some d) /\
    (forall c, In c cells -> cell_ok w' f rc o1 o2 o3 c) /\
    cells_state w' f (map c_name (sort_cells cells)).
Proof. exact create_scool_spec. Qed.
Print Assumptions C17_every_cell_reads_back.

(** every cell group carries the cooler tag after all appends, and the attributes of every older object are kept *)
Theorem C17_every_cell_is_tagged : forall cells w f rc rb o1 o2 o3 done w',
  root_ok w f rc rb o1 o2 o3 -> cells_state w f done ->
  NoDup (done ++ map c_name cells) -> Forall cell_tagged cells ->
  append_cells w f cells = (Ok, w') ->
  attrs_kept w w' /\
  forall c, In c cells -> forall gc g, child w' f 0 "cells"%string = Some gc -> child w' f gc (c_name c) = Some g ->
    is_cooler_at w' f g = true.
Proof. exact append_cells_coolers. Qed.
Print Assumptions C17_every_cell_is_tagged.

(** recognition: the file written by create_scool (mode w, at least one cell, distinct names, every cell tagged
    as a cooler, the root tagged with the single-cell marker) is recognised by is_scool_file ... *)
Theorem C17_recognised_as_single_cell_file : forall w f rchroms rbins rattrs cells w' dc ds de,
  create_scool w f true rchroms rbins rattrs cells = (Ok, w') ->
  NoDup (map c_name cells) -> cells <> [] -> Forall cell_tagged cells ->
  In ("chrom"%string, dc) rbins -> In ("start"%string, ds) rbins -> In ("end"%string, de) rbins ->
  NoDup (map fst rattrs) -> In ("format"%string, AStr MAGIC_SCOOL) rattrs ->
  is_scool_file w' f = Some true.
Proof. exact create_scool_recognised. Qed.
Print Assumptions C17_recognised_as_single_cell_file.

(** ... and no file without the marker is *)
Theorem C17_not_recognised_without_marker : forall w f, file_exists w f = true ->
  has_format w f 0 MAGIC_SCOOL = false -> is_scool_file w f = Some false.
Proof. exact not_scool_without_marker. Qed.
Print Assumptions C17_not_recognised_without_marker.

(** listing (partial: one inclusion): whenever list_scool_cells returns on that file (no external links, unique
    member names), every given cell is listed as /cells/<name>.  That nothing else is listed follows from
    C15_listing_exact only together with the fact that no other object of the file carries the cooler tag,
    which is not proved here (it is observed on every run); the natural order is applied by the caller. *)
Theorem C17_every_cell_listed_partial : forall w f rchroms rbins rattrs cells w' dc ds de L,
  create_scool w f true rchroms rbins rattrs cells = (Ok, w') ->
  NoDup (map c_name cells) -> Forall cell_tagged cells ->
  In ("chrom"%string, dc) rbins -> In ("start"%string, ds) rbins -> In ("end"%string, de) rbins ->
  no_ext w' f -> nodup_keys w' f -> list_scool_cells w' f = (Ok, L) ->
  forall c, In c cells -> In (cell_path c) L.
Proof. exact create_scool_cells_listed. Qed.
Print Assumptions C17_every_cell_listed_partial.

(** sorting the cell names only permutes them *)
Theorem C17_sorted_names_are_the_given_names : forall l, Permutation.Permutation (sort_cells l) l.
Proof. exact sort_cells_perm. Qed.
Print Assumptions C17_sorted_names_are_the_given_names.

(** non-vacuity + listing and recognition on a concrete file: two cells (one empty, a name with a space),
    per-cell extra bin column, shared start column *)
Example ex_C17_two_cells :
  fst ex_scool = Ok /\
  list_scool_cells (snd ex_scool) FA = (Ok, [["cells"; "cell A"]; ["cells"; "cellB"]]%string) /\
  is_scool_file (snd ex_scool) FA = Some true /\
  resolve (snd ex_scool) FA ["cells"; "cellB"; "bins"; "start"]%string = resolve (snd ex_scool) FA ["bins"; "start"]%string /\
  resolve (snd ex_scool) FA ["cells"; "cell A"; "bins"; "w"]%string <> resolve (snd ex_scool) FA ["cells"; "cellB"; "bins"; "w"]%string.
Proof. vm_compute. repeat split; try reflexivity. discriminate. Qed.

(** the deprecated `dtype=` spelling of the pixel dtype mapping is resolved in one place (_get_dtypes_arg) and the resolved mapping is
    what create / create_from_unordered / create_scool go on to use: pinned in the source on every run (tools/py2v.py) *)
From Cooler Require Import Gen.Translated.
Theorem C17_dtypes_alias_source_pins : Gen.dtypes_alias_source_pins = true.
Proof. reflexivity. Qed.
Print Assumptions C17_dtypes_alias_source_pins.

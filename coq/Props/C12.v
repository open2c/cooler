(** C12  Balanced reads equal raw values times the two bin weights.
    Weights are exact rationals, [None] = NaN (absorbing); [wt w dv k] is the weight bin k contributes: the stored
    weight, or its reciprocal when the column is divisive.  Statements.  The cell theorems (rational and
    binary64) are instances of the generic ones of Proofs/BalancedFProofs.v; the divisive default, the error / never-raw statements and the
    composition with C03 are in Proofs/BalancedProofs.v (the binary64 composition is the generic one unfolded here);
    pins and examples are evaluations. *)
From Cooler Require Import Model.Query Model.Balanced Proofs.QueryProofs Proofs.QueryMain Proofs.BalancedProofs.
From Cooler Require Import Model.BalancedF Proofs.BalancedFProofs Gen.Translated.
From Coq Require Import SpecFloat FloatOps.

(** dense output: cell (a, b) of the window = raw value x weight of row bin i0+a x weight of column bin j0+b.
    Row weights come from the row range and column weights from the column range, whatever the two ranges are. *)
Theorem C12_dense_cell : forall d w i0 i1 j0 j1 dv a b,
  0 <= i0 -> i0 <= i1 -> i1 <= zlen w -> 0 <= j0 -> j0 <= j1 -> j1 <= zlen w ->
  zlen d = i1 - i0 -> (forall r, In r d -> zlen r = j1 - j0) ->
  0 <= a < i1 - i0 -> 0 <= b < j1 - j0 ->
  nth (Z.to_nat b) (nth (Z.to_nat a) (balanced_dense d w (i0, i1, j0, j1) dv) []) None =
  wmul (wmul (wt w dv (i0 + a)) (wt w dv (j0 + b))) (wofZ (nth (Z.to_nat b) (nth (Z.to_nat a) d []) 0)).
Proof. exact (BalancedFProofs.gbalanced_dense_cell winv wcell None). Qed.
Print Assumptions C12_dense_cell.

(** the whole balanced dense query on a valid symmetric-upper table, for every window and chunk size:
    weights x the corresponding entry of the symmetric matrix (composition with C03) *)
Theorem C12_dense_balanced_full : forall n epx off cs cols balance dw name w i0 i1 j0 j1,
  ValidCSR n epx off -> Upper epx -> 1 <= cs ->
  0 <= i0 -> i0 <= i1 -> i1 <= n -> 0 <= j0 -> j0 <= j1 -> j1 <= n -> zlen w = n ->
  weight_name balance = Some name -> lookup_weights cols name = Some w ->
  exists D, matrix_balanced epx off cs true Dense cols balance dw (i0, i1, j0, j1) = Some (BDense D) /\
    forall a b, 0 <= a < i1 - i0 -> 0 <= b < j1 - j0 ->
      nth (Z.to_nat b) (nth (Z.to_nat a) D []) None =
      wmul (wmul (wt w (effective_divisive balance dw) (i0 + a)) (wt w (effective_divisive balance dw) (j0 + b)))
           (wofZ (symm (map snd epx) (i0 + a) (j0 + b))).
Proof. exact dense_balanced_full. Qed.
Print Assumptions C12_dense_balanced_full.

(** sparse output: the same product on every emitted entry *)
Theorem C12_sparse_entries : forall out w i0 i1 j0 j1 dv,
  0 <= i0 -> i0 <= i1 -> i1 <= zlen w -> 0 <= j0 -> j0 <= j1 -> j1 <= zlen w ->
  (forall r, In r out -> in_window (i0, i1, j0, j1) (snd r) = true) ->
  balanced_sparse out w (i0, i1, j0, j1) dv =
  map (fun r => (fst (snd r), wmul (wmul (wt w dv (row (snd r))) (wt w dv (col (snd r)))) (wofZ (val (snd r))))) out.
Proof. exact (BalancedFProofs.gbalanced_sparse_spec winv wcell None). Qed.
Print Assumptions C12_sparse_entries.

(** pixel output: balanced_k = count_k x w(bin1_k) x w(bin2_k) *)
Theorem C12_pixels_column : forall out w dv,
  balanced_pixels out w dv =
  map (fun r => (r, wmul (wmul (wt w dv (row (snd r))) (wt w dv (col (snd r)))) (wofZ (val (snd r))))) out.
Proof. exact (BalancedFProofs.gbalanced_pixels_spec winv wcell None). Qed.
Print Assumptions C12_pixels_column.

(** NaN wherever either bin is masked *)
Theorem C12_masked_bin_gives_nan : forall w dv k x y,
  wnth w k = None -> wmul (wmul (wt w dv k) x) y = None /\ wmul (wmul x (wt w dv k)) y = None.
Proof. intros w dv k x y H. rewrite (wt_masked w dv k H). split; [apply wmul_none_l|apply wmul_none_r]. Qed.
Print Assumptions C12_masked_bin_gives_nan.

(** divisive by default exactly for the conventional 4DN names; an explicit flag always wins *)
Theorem C12_divisive_default : forall balance dw,
  effective_divisive balance dw =
  match dw with
  | Some b => b
  | None => match balance with
            | Some (Some s) => (String.eqb s "KR" || String.eqb s "VC" || String.eqb s "VC_SQRT")%bool
            | _ => false
            end
  end.
Proof. exact effective_divisive_spec. Qed.
Print Assumptions C12_divisive_default.

(** asking for a missing weight column is an error, and a balanced request never yields an unbalanced result *)
Theorem C12_missing_column_is_error : forall epx off cs fill form cols balance dw bb name,
  weight_name balance = Some name -> lookup_weights cols name = None ->
  matrix_balanced epx off cs fill form cols balance dw bb = None.
Proof. exact missing_column_is_error. Qed.
Print Assumptions C12_missing_column_is_error.
Theorem C12_balanced_never_raw : forall epx off cs fill form cols balance dw bb name out,
  weight_name balance = Some name -> matrix_balanced epx off cs fill form cols balance dw bb <> Some (BRaw out).
Proof. exact balanced_never_raw. Qed.
Print Assumptions C12_balanced_never_raw.

(** a table with a masked bin: the cells of its row and column are NaN, the others the exact products *)
Definition ex12_px : list pixel := [((0,0),4); ((0,2),6); ((1,2),3); ((2,2),8)].
Definition ex12_w : list weight := [Some (1#2); None; Some (2#1)].
Example ex_C12_dense :
  option_map (fun r => match r with BDense d => d | _ => [] end)
    (matrix_balanced (epx_of ex12_px) (offsets_of 3 ex12_px) 2 true Dense [("weight"%string, ex12_w)] (Some None) None (1,3,0,3))
  = Some [[None; None; None]; [Some ((2#1) * (1#2) * inject_Z 6)%Q; None; Some ((2#1) * (2#1) * inject_Z 8)%Q]].
Proof. vm_compute. reflexivity. Qed.
Example ex_C12_divisive_by_name :
  effective_divisive (Some (Some "KR"%string)) None = true /\ effective_divisive (Some (Some "weight"%string)) None = false /\
  effective_divisive (Some (Some "KR"%string)) (Some false) = false.
Proof. vm_compute. repeat split. Qed.

(** The same statements in IEEE-754 binary64, bit for bit (Model/BalancedF.v, Proofs/BalancedFProofs.v).
    Both sides of each equation are primitive-float terms, so rounding, infinities and NaN are those of the machine
    operations the kernel evaluates; [fwt w dv k] is the stored weight of bin k or [1 / w] when the column is divisive. *)

(** the rational model and the binary64 model are one generic definition at two scalar types *)
Theorem C12_models_share_one_definition : forall d w bb dv out,
  balanced_dense d w bb dv = gbalanced_dense winv (fun x y v => wmul (wmul x y) (wofZ v)) d w bb dv /\
  balanced_sparse out w bb dv = gbalanced_sparse winv (fun x y v => wmul (wmul x y) (wofZ v)) None out w bb dv /\
  balanced_pixels out w dv = gbalanced_pixels winv (fun x y v => wmul (wmul x y) (wofZ v)) None out w dv.
Proof. intros d w [[[i0 i1] j0] j1] dv out. repeat split. Qed.
Print Assumptions C12_models_share_one_definition.

(** dense: cell (a, b) = float(raw) * (w_row * w_col) — numpy's  arr * np.outer(bias1, bias2) *)
Theorem C12_float_dense_cell : forall d w i0 i1 j0 j1 dv a b,
  0 <= i0 -> i0 <= i1 -> i1 <= zlen w -> 0 <= j0 -> j0 <= j1 -> j1 <= zlen w ->
  zlen d = i1 - i0 -> (forall r, In r d -> zlen r = j1 - j0) ->
  0 <= a < i1 - i0 -> 0 <= b < j1 - j0 ->
  nth (Z.to_nat b) (nth (Z.to_nat a) (fbalanced_dense d w (i0, i1, j0, j1) dv) []) PrimFloat.nan =
  PrimFloat.mul (f_of_Z (nth (Z.to_nat b) (nth (Z.to_nat a) d []) 0)) (PrimFloat.mul (fwt w dv (i0 + a)) (fwt w dv (j0 + b))).
Proof. exact (gbalanced_dense_cell f_inv f_cell_dense PrimFloat.nan). Qed.
Print Assumptions C12_float_dense_cell.

Theorem C12_float_dense_balanced_full : forall n epx off cs w dv i0 i1 j0 j1,
  ValidCSR n epx off -> Upper epx -> 1 <= cs ->
  0 <= i0 -> i0 <= i1 -> i1 <= n -> 0 <= j0 -> j0 <= j1 -> j1 <= n -> zlen w = n ->
  exists D, fmatrix_balanced epx off cs true Dense (Some (Some w)) dv (i0, i1, j0, j1) = Some (FDense D) /\
    forall a b, 0 <= a < i1 - i0 -> 0 <= b < j1 - j0 ->
      nth (Z.to_nat b) (nth (Z.to_nat a) D []) PrimFloat.nan =
      PrimFloat.mul (f_of_Z (symm (map snd epx) (i0 + a) (j0 + b))) (PrimFloat.mul (fwt w dv (i0 + a)) (fwt w dv (j0 + b))).
Proof.
  intros. destruct (gdense_balanced_full f_inv f_cell_dense PrimFloat.nan n epx off cs w dv i0 i1 j0 j1) as [out [Ho Hc]]; try assumption.
  unfold fmatrix_balanced, matrix_records. rewrite Ho. eexists. split; [reflexivity|exact Hc].
Qed.
Print Assumptions C12_float_dense_balanced_full.

(** sparse / pixels: (w_row * w_col) * float(raw) on every emitted entry *)
Theorem C12_float_sparse_entries : forall out w i0 i1 j0 j1 dv,
  0 <= i0 -> i0 <= i1 -> i1 <= zlen w -> 0 <= j0 -> j0 <= j1 -> j1 <= zlen w ->
  (forall r, In r out -> in_window (i0, i1, j0, j1) (snd r) = true) ->
  fbalanced_sparse out w (i0, i1, j0, j1) dv =
  map (fun r => (fst (snd r), PrimFloat.mul (PrimFloat.mul (fwt w dv (row (snd r))) (fwt w dv (col (snd r)))) (f_of_Z (val (snd r))))) out.
Proof. exact (gbalanced_sparse_spec f_inv f_cell_entry PrimFloat.nan). Qed.
Print Assumptions C12_float_sparse_entries.
Theorem C12_float_pixels_column : forall out w dv,
  fbalanced_pixels out w dv =
  map (fun r => (r, PrimFloat.mul (PrimFloat.mul (fwt w dv (row (snd r))) (fwt w dv (col (snd r)))) (f_of_Z (val (snd r))))) out.
Proof. exact (gbalanced_pixels_spec f_inv f_cell_entry PrimFloat.nan). Qed.
Print Assumptions C12_float_pixels_column.

(** NaN wherever either bin is masked — through the IEEE semantics of the primitive operations *)
Theorem C12_float_masked_bin_gives_nan : forall w dv k x v,
  is_nan_f (gnth PrimFloat.nan w k) ->
  is_nan_f (f_cell_dense (fwt w dv k) x v) /\ is_nan_f (f_cell_dense x (fwt w dv k) v) /\
  is_nan_f (f_cell_entry (fwt w dv k) x v) /\ is_nan_f (f_cell_entry x (fwt w dv k) v).
Proof. exact fmasked_bin_gives_nan. Qed.
Print Assumptions C12_float_masked_bin_gives_nan.

Theorem C12_float_missing_column_is_error : forall epx off cs fill form dv bb,
  fmatrix_balanced epx off cs fill form (Some None) dv bb = None.
Proof. exact fmissing_column_is_error. Qed.
Print Assumptions C12_float_missing_column_is_error.

(** non-vacuity: 0.1 * 0.3 * 7 is not a dyadic computation; the divisive cell is 6 * ((1/0.1) * (1/0.3)) *)
Example ex_C12_float :
  let w := [0x1.999999999999ap-4; PrimFloat.nan; 0x1.3333333333333p-2]%float in
  match fmatrix_balanced (epx_of ex12_px) (offsets_of 3 ex12_px) 2 true Dense (Some (Some w)) false (0,1,0,3),
        fmatrix_balanced (epx_of ex12_px) (offsets_of 3 ex12_px) 2 true Dense (Some (Some w)) true (0,1,2,3) with
  | Some (FDense [[a; b; c]]), Some (FDense [[d]]) =>
      (Prim2SF a, Prim2SF b, Prim2SF c, Prim2SF d) =
      (Prim2SF (4 * (0x1.999999999999ap-4 * 0x1.999999999999ap-4))%float, S754_nan,
       Prim2SF (6 * (0x1.999999999999ap-4 * 0x1.3333333333333p-2))%float,
       Prim2SF (6 * ((1 / 0x1.999999999999ap-4) * (1 / 0x1.3333333333333p-2)))%float)
  | _, _ => False
  end.
Proof. vm_compute. reflexivity. Qed.

(** Tie to the source: the balance branches of api.matrix — which slices the weights come from (bias2 = bias1 only
    for coinciding ranges), the reciprocal for divisive weights, and the ORDER of the float multiplications that the
    binary64 model reproduces (dense: arr * outer(b1, b2); sparse and pixels: b1 * b2 * data) — and the divisive default of
    Cooler.matrix are pinned in the source on every run (tools/py2v.py; the constant exists only if they are unchanged). *)
Theorem C12_source_pins : Gen.matrix_balance_pins = true.
Proof. reflexivity. Qed.
Print Assumptions C12_source_pins.

(** C13  Invalid input or a failed write never yields a cooler nor harms its neighbours.
    Statements.  A proof here is [exact] of the lemma with the same statement, a few lines from the general lemmas, or an evaluation for a concrete witness;
    the lemmas are in Proofs/CreateProofs.v (Proofs/GenBridgeCreate.v for the source tie).  Model: Model/Create.v (validate_pixels; create() as a step
    machine  [open(mode); clear/make target; write chroms; write bins; prepare pixels; chunk_0 .. chunk_m;
    write indexes; write info]  over a path -> {format attribute, content id} file model). *)
From Cooler Require Import Model.Create Proofs.PixelsProofs Proofs.CreateProofs.

(** with the default checks (boundscheck, dupcheck on; triucheck effective in symmetric mode)
    a chunk of ANY size holding, at any position, an id < 0 or >= n, a lower-triangle pixel, or two records
    with the same key is rejected *)
Theorem C13_validator_complete :
  forall (V : Type) (n : Z) (tc es : bool) (c : list (key * V)),
  (exists r, In r c /\ bad_id n r) \/
  (tc = true /\ exists r, In r c /\ snd (fst r) < fst (fst r)) \/
  ~ NoDup (map fst c) ->
  exists e, validate_pixels n true tc true es c = inl e.
Proof. exact @validator_complete. Qed.
Print Assumptions C13_validator_complete.

(** ... and only such chunks are rejected: acceptance is exactly the conjunction of the enabled checks *)
Theorem C13_validator_exact :
  forall (V : Type) (n : Z) (bc tc dc es : bool) (c : list (key * V)),
  (exists c', validate_pixels n bc tc dc es c = inr c') <-> chunk_ok n bc tc dc c.
Proof.
  intros. split; [intros [c' H]; now apply validate_inr_iff in H|intros H; eexists; now apply validate_inr_iff].
Qed.
Print Assumptions C13_validator_exact.

(** for every mode, destination, stream outcome list and file: if create() stops before its end (a failing
    iteration at ANY chunk index), no path is recognised as a cooler that was not one before ... *)
Theorem C13_failed_create_no_new_cooler :
  forall (m : mode) (dest : path) (oks : list bool) (f f' : file),
  run dest (create_steps m oks) f = (f', false) ->
  forall p, is_cooler f' p = true -> is_cooler f p = true.
Proof. exact failed_create_no_new_cooler. Qed.
Print Assumptions C13_failed_create_no_new_cooler.

(** ... so a destination that held no cooler is neither recognised nor listed afterwards *)
Theorem C13_failed_create_not_cooler :
  forall (m : mode) (dest : path) (oks : list bool) (f f' : file),
  is_cooler f dest = false ->
  run dest (create_steps m oks) f = (f', false) ->
  is_cooler f' dest = false /\ ~ In dest (list_coolers f').
Proof. exact failed_create_not_cooler. Qed.
Print Assumptions C13_failed_create_not_cooler.

(** the same when execution simply stops between two steps (any proper prefix of the step list):
    "format" is written only by the last step *)
Theorem C13_crashed_create_not_cooler :
  forall (m : mode) (dest : path) (oks : list bool) (f : file) (k : nat),
  (k < length (create_steps m oks))%nat ->
  forall p, is_cooler (fst (run dest (firstn k (create_steps m oks)) f)) p = true -> is_cooler f p = true.
Proof. exact crashed_create_not_cooler. Qed.
Print Assumptions C13_crashed_create_not_cooler.

(** frame: in append mode every group that existed and is not the destination or below it (root destination: every
    group but the root) is unchanged, after the whole step list (completed or stopped by a failing step) and after
    any prefix of it *)
Theorem C13_failed_create_frame :
  forall (dest : path) (oks : list bool) (f : file) (k : nat) (p : path) (g : group),
  untouched dest p -> lookup f p = Some g ->
  lookup (fst (run dest (create_steps ModeA oks) f)) p = Some g /\
  lookup (fst (run dest (firstn k (create_steps ModeA oks)) f)) p = Some g.
Proof. exact failed_create_frame. Qed.
Print Assumptions C13_failed_create_frame.

(** listing = recognition *)
Theorem C13_list_coolers_spec : forall f p, In p (list_coolers f) <-> is_cooler f p = true.
Proof. exact list_coolers_spec. Qed.
Print Assumptions C13_list_coolers_spec.

(** the property at the level of input streams (ordered creation): any stream holding a bad chunk or a raising
    point of the iterator at any position *)
Theorem C13_invalid_stream_no_cooler :
  forall (V : Type) (m : mode) (dest : path) (n : Z) (tc es : bool) (fits : key * V -> bool)
         (items : list (option (list (key * V)))) (f : file),
  (exists it, In it items /\ bad_item n tc it) ->
  let '(f', ok) := create_machine m dest (validate_pixels n true tc true es) fits items f in
  ok = false /\
  (forall p, is_cooler f' p = true -> is_cooler f p = true) /\
  (is_cooler f dest = false -> is_cooler f' dest = false /\ ~ In dest (list_coolers f')) /\
  (m = ModeA -> forall p g, untouched dest p -> lookup f p = Some g -> lookup f' p = Some g).
Proof. exact @invalid_stream_no_cooler. Qed.
Print Assumptions C13_invalid_stream_no_cooler.

(** unordered creation: the failure is in the sort pass; the destination file is not touched *)
Theorem C13_invalid_stream_unordered_untouched :
  forall (V : Type) (m : mode) (dest : path) (n : Z) (tc es : bool) (fits : key * V -> bool)
         (items : list (option (list (key * V)))) (f : file),
  (exists it, In it items /\ bad_item n tc it) ->
  create_unordered_machine m dest (validate_pixels n true tc true es) fits items f = (f, false).
Proof. exact @invalid_stream_unordered_untouched. Qed.
Print Assumptions C13_invalid_stream_unordered_untouched.

(** sanity: a run that completes does produce a cooler (the machine is not trivially "never a cooler") *)
Theorem C13_completed_create_is_cooler :
  forall (m : mode) (dest : path) (oks : list bool) (f f' : file),
  run dest (create_steps m oks) f = (f', true) -> is_cooler f' dest = true.
Proof. exact completed_create_is_cooler. Qed.
Print Assumptions C13_completed_create_is_cooler.

(** every run whose iterations all succeed completes, whatever the file, mode and destination *)
Theorem C13_run_completes :
  forall (m : mode) (dest : path) (oks : list bool) (f : file),
  forallb (fun b => b) oks = true -> snd (run dest (create_steps m oks) f) = true.
Proof. intros m dest oks f H. apply run_create_ok, Forall_forall. now apply forallb_forall. Qed.
Print Assumptions C13_run_completes.

(** the step machine and the functional model of create (the one C01's round-trip theorems are about) agree on
    which streams are accepted: so "creation stops" in this file means exactly "create returns an error" there *)
Theorem C13_machine_completes_iff_create_ok :
  forall (V : Type) (dflt : key * V) (fits : key * V -> bool) (count : option (key * V -> Z))
         (m : mode) (dest : path) (n : Z) (su tc es : bool) (chunks : list (list (key * V))) (f : file),
  zlen (concat chunks) <= max_size n su ->
  (snd (create_machine m dest (validate_pixels n true (tc && su) true es) fits (map Some chunks) f) = true
   <-> exists c, create dflt fits count n su true tc true es chunks = inr c).
Proof. exact @machine_completes_iff_create_ok. Qed.
Print Assumptions C13_machine_completes_iff_create_ok.

(** non-vacuity: a file with two collections /1 (cooler) and /2 (cooler) and a plain group /3; destination /3/7 *)
Definition ex_file : file :=
  [([], {| g_format := false; g_content := 10 |}); ([1], {| g_format := true; g_content := 11 |});
   ([2], {| g_format := true; g_content := 12 |}); ([3], {| g_format := false; g_content := 13 |})].
Example ex_C13_failed_run :
  let r := run [3; 7] (create_steps ModeA [true; false; true]) ex_file in
  snd r = false /\ is_cooler (fst r) [3; 7] = false /\ lookup (fst r) [3; 7] <> None /\
  list_coolers (fst r) = [[1]; [2]] /\ lookup (fst r) [1] = lookup ex_file [1] /\ lookup (fst r) [3] = lookup ex_file [3].
Proof. vm_compute. repeat split; discriminate. Qed.
Example ex_C13_completed_run :
  let r := run [3; 7] (create_steps ModeA [true; true]) ex_file in
  snd r = true /\ is_cooler (fst r) [3; 7] = true /\ In [3; 7] (list_coolers (fst r)).
Proof. vm_compute. repeat split. auto. Qed.
Example ex_C13_validator :
  validate_pixels 3 true true true false [((0,1),5); ((2,1),7)] = inl ErrTril /\
  validate_pixels 3 true true true false [((0,1),5); ((0,3),7)] = inl ErrExcess /\
  validate_pixels 3 true true true false [((0,1),5); ((1,1),1); ((0,1),7)] = inl ErrDup /\
  validate_pixels 3 true true true false [((0,1),5); ((1,1),1)] = inr [((0,1),5); ((1,1),1)].
Proof. vm_compute. repeat split. Qed.

(** ---- tie to the source by translation: the per-record predicates of _ingest._validate_pixels (negative id, id beyond
    the bin table, lower-triangle pixel) are regenerated from the source on every run (tools/py2v.py -> Gen.vp_is_neg,
    Gen.vp_is_excess, Gen.vp_is_tril) and the model's validator is exactly the cascade over them; the order of the checks,
    the flag guarding each, the NaN test (D36), the duplicate test and the optional sort are pinned, as are the validator
    chaining in create() and the fit check / store statements of write_pixels. *)
From Cooler Require Import Gen.Translated Proofs.GenBridgeCreate.
Theorem C13_source_validator_is_model : forall (V : Type) n bc tc dc es (c : list (key * V)),
  validate_pixels n bc tc dc es c =
  if bc && existsb (fun r => Gen.vp_is_neg (fst (fst r)) (snd (fst r))) c then inl ErrNeg
  else if bc && existsb (fun r => Gen.vp_is_excess (fst (fst r)) (snd (fst r)) n) c then inl ErrExcess
  else if tc && existsb (fun r => Gen.vp_is_tril (fst (fst r)) (snd (fst r))) c then inl ErrTril
  else if dc && has_dup c then inl ErrDup
  else inr (if es then sort_rows c else c).
Proof. intros. apply gen_validate_pixels. Qed.
Print Assumptions C13_source_validator_is_model.
Theorem C13_source_pins : Gen.validate_pixels_source_pins = true /\ Gen.create_write_source_pins = true.
Proof. exact gen_validate_pins. Qed.
Print Assumptions C13_source_pins.

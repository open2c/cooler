(** C19  Region and URI strings parse to exactly what they denote, or are refused.
    The statements of the property; each follows in a few lines from the lemmas of Proofs/TextProofs.v
    about the executable model Model/Text.v of cooler.util.parse_region_string / parse_humanized /
    parse_region / parse_cooler_uri; the theorems that compose with C04 are in Proofs/RegionIntegration.v, the source tie in
    Proofs/GenBridgeRegion.v.  Strings are [list ascii]; [None] is the ValueError. *)
From Cooler Require Import Model.Extent Proofs.BinsProofs.
From Cooler Require Proofs.ExtentProofs.
From Cooler Require Import Model.Text Proofs.TextProofs Proofs.RegionIntegration.

(** int(str(z)) = z : the decimal printer used in the statements is read back exactly *)
Theorem C19_dec_read_back : forall z, 0 <= z ->
  digits_val (dec z) = z /\ forallb is_digit (dec z) = true /\ dec z <> [].
Proof. intros z Hz. repeat split; [now apply digits_val_dec|now apply dec_digits|apply dec_nonempty]. Qed.
Print Assumptions C19_dec_read_back.

(** every name that is non-empty, has no ':' and no blank at either end ([name_ok_b], inner blanks,
    '-', '.', digits allowed), every 0 <= s <= e *)
Theorem C19_parse_format_roundtrip : forall name s e,
  name_ok_b name = true -> 0 <= s <= e ->
  parse_region_string (name ++ c_colon :: dec s ++ c_hyphen :: dec e) = Some (name, Some s, Some e).
Proof. exact parse_format_roundtrip. Qed.
Print Assumptions C19_parse_format_roundtrip.

Theorem C19_parse_format_roundtrip_open : forall name s,
  name_ok_b name = true -> 0 <= s ->
  parse_region_string (name ++ c_colon :: dec s ++ [c_hyphen]) = Some (name, Some s, None).
Proof. exact parse_format_roundtrip_open. Qed.
Print Assumptions C19_parse_format_roundtrip_open.

Theorem C19_parse_bare_name : forall name,
  name_ok_b name = true -> parse_region_string name = Some (name, None, None).
Proof. exact parse_region_string_bare. Qed.
Print Assumptions C19_parse_bare_name.

(** thousands separators: ANY placement of commas among the digits (cs, ce are strings over [0-9,]
    whose digits spell s and e) ... *)
Theorem C19_parse_commas_roundtrip : forall name s e cs ce,
  name_ok_b name = true -> 0 <= s <= e ->
  forallb is_digit_or_comma cs = true -> remove_commas cs = dec s ->
  forallb is_digit_or_comma ce = true -> remove_commas ce = dec e ->
  parse_region_string (name ++ c_colon :: cs ++ c_hyphen :: ce) = Some (name, Some s, Some e).
Proof. exact parse_commas_roundtrip. Qed.
Print Assumptions C19_parse_commas_roundtrip.

(** ... in particular the standard grouping in threes, f"{z:,}" *)
Theorem C19_parse_format_commas_roundtrip : forall name s e,
  name_ok_b name = true -> 0 <= s <= e ->
  parse_region_string (name ++ c_colon :: dec_commas s ++ c_hyphen :: dec_commas e) = Some (name, Some s, Some e).
Proof.
  intros name s e Hn [Hs Hse]. destruct (dec_commas_spec s Hs), (dec_commas_spec e (Z.le_trans _ _ _ Hs Hse)).
  now apply parse_commas_roundtrip.
Qed.
Print Assumptions C19_parse_format_commas_roundtrip.

(** the grammar: what every string of the shape
         name ":" blanks COORD blanks "-" blanks COORD junk
    evaluates to, for every COORD token  [0-9,]+ ( "." [0-9]* )? [A-Za-z]*  given in parts
    ([ctok_ok_b]); [junk] is anything that cannot extend the last token ([tok_end]): it is ignored. *)
Theorem C19_region_grammar_closed : forall name w1 t1 w2 w3 t2 junk,
  name_ok_b name = true ->
  forallb is_blank w1 = true -> forallb is_blank w2 = true -> forallb is_blank w3 = true ->
  ctok_ok_b t1 = true -> ctok_ok_b t2 = true -> tok_end junk ->
  parse_region_string (name ++ c_colon :: w1 ++ ctok_str t1 ++ w2 ++ c_hyphen :: w3 ++ ctok_str t2 ++ junk)
  = match ctok_val t1, ctok_val t2 with
    | Some a, Some b => if b <? a then None else Some (name, Some a, Some b)
    | _, _ => None
    end.
Proof. exact region_grammar_closed. Qed.
Print Assumptions C19_region_grammar_closed.

Theorem C19_region_grammar_open : forall name w1 t1 w2 nl tail,
  name_ok_b name = true ->
  forallb is_blank w1 = true -> forallb is_blank w2 = true -> forallb is_newline nl = true ->
  ctok_ok_b t1 = true -> colon_tail tail ->
  parse_region_string (name ++ c_colon :: w1 ++ ctok_str t1 ++ w2 ++ c_hyphen :: nl ++ tail)
  = match ctok_val t1 with Some a => Some (name, Some a, None) | None => None end.
Proof. exact region_grammar_open. Qed.
Print Assumptions C19_region_grammar_open.

(** the value of a COORD token is what parse_humanized computes on its text *)
Theorem C19_token_value : forall t, ctok_ok_b t = true -> parse_humanized (ctok_str t) = ctok_val t.
Proof. exact parse_humanized_ctok. Qed.
Print Assumptions C19_token_value.

(** exact scaling: a numeral ip.fd (ip over [0-9,], fd over [0-9]) with a unit al of the table
    (multiplier m) whose scaled value  n = ip.fd * m  is an integer parses to exactly n.
    The equation is the exact rational one, multiplied out by 10^|fd|. *)
Theorem C19_humanized_exact : forall ip fd al m n,
  forallb is_digit_or_comma ip = true -> forallb is_digit fd = true -> forallb is_alpha al = true ->
  al <> [] -> (remove_commas ip <> [] \/ fd <> []) -> unit_mult (map to_upper al) = Some m ->
  n * 10 ^ zlen fd = (digits_val (remove_commas ip) * 10 ^ zlen fd + digits_val fd) * m ->
  parse_humanized (ip ++ c_dot :: fd ++ al) = Some n.
Proof. exact humanized_exact. Qed.
Print Assumptions C19_humanized_exact.

(** in general the result is the floor of the scaled value (a non-integral one is truncated, not refused) *)
Theorem C19_humanized_floor : forall ip fd al m,
  forallb is_digit_or_comma ip = true -> forallb is_digit fd = true -> forallb is_alpha al = true ->
  al <> [] -> (remove_commas ip <> [] \/ fd <> []) -> unit_mult (map to_upper al) = Some m ->
  parse_humanized (ip ++ c_dot :: fd ++ al)
  = Some ((digits_val (remove_commas ip) * 10 ^ zlen fd + digits_val fd) * m / 10 ^ zlen fd).
Proof. exact humanized_floor. Qed.
Print Assumptions C19_humanized_floor.

Theorem C19_humanized_unit_nodot : forall ip al m,
  forallb is_digit_or_comma ip = true -> forallb is_alpha al = true ->
  al <> [] -> remove_commas ip <> [] -> unit_mult (map to_upper al) = Some m ->
  parse_humanized (ip ++ al) = Some (digits_val (remove_commas ip) * m).
Proof.
  intros ip al m Hip Hal Hne Hdig Hu.
  change (ip ++ al) with (ip ++ frac_part false [] ++ al). rewrite parse_humanized_coord by auto.
  unfold coord_value. rewrite Hu. destruct al; [congruence|]. destruct (remove_commas ip); [congruence|].
  cbn [is_nil andb]. change (zlen (@nil ascii)) with 0. change (digits_val []) with 0.
  f_equal. rewrite Z.div_1_r. ring.
Qed.
Print Assumptions C19_humanized_unit_nodot.

(** the unit table is exactly K, KB -> 10^3; M, MB -> 10^6; G, GB -> 10^9 (after upper-casing) *)
Theorem C19_unit_table : forall u m, unit_mult u = Some m <->
  ((u = u_K \/ u = u_KB) /\ m = 1000) \/ ((u = u_M \/ u = u_MB) /\ m = 1000000) \/
  ((u = u_G \/ u = u_GB) /\ m = 1000000000).
Proof. exact unit_mult_spec. Qed.
Print Assumptions C19_unit_table.

Theorem C19_refuse_unknown_unit : forall ip hasdot fd al,
  forallb is_digit_or_comma ip = true -> forallb is_digit fd = true -> forallb is_alpha al = true ->
  (hasdot = false -> fd = []) -> al <> [] -> unit_mult (map to_upper al) = None ->
  parse_humanized (ip ++ frac_part hasdot fd ++ al) = None.
Proof. intros. rewrite parse_humanized_coord by assumption. now apply coord_value_unknown_unit. Qed.
Print Assumptions C19_refuse_unknown_unit.

(** empty or blank-only name, with or without coordinates *)
Theorem C19_refuse_empty_name : forall w rest, forallb is_blank w = true ->
  parse_region_string (w ++ c_colon :: rest) = None /\ parse_region_string w = None.
Proof.
  intros w rest Hw. pose proof (blank_notcolon w Hw).
  now rewrite parse_region_string_colon_gen, parse_region_string_bare_gen, strip_blank.
Qed.
Print Assumptions C19_refuse_empty_name.

(** missing hyphen: for EVERY colon-free name and EVERY text after the colon whose part up to the next
    colon contains no '-' *)
Theorem C19_refuse_missing_hyphen : forall name rest,
  forallb notcolon name = true ->
  forallb (fun c => negb (is_hyphen c)) (take_while notcolon rest) = true ->
  parse_region_string (name ++ c_colon :: rest) = None.
Proof.
  intros name rest Hn Hh. rewrite parse_region_string_colon_gen by assumption.
  apply forallb_negb_existsb in Hh. destruct (is_nil (strip name)); [reflexivity|].
  destruct (expect _) eqn:E; [|reflexivity]. rewrite expect_needs_hyphen in Hh; [discriminate|congruence].
Qed.
Print Assumptions C19_refuse_missing_hyphen.

(** leading '-' (a negative start) whatever follows *)
Theorem C19_refuse_leading_hyphen : forall name w rest,
  forallb notcolon name = true -> forallb is_blank w = true ->
  parse_region_string (name ++ c_colon :: w ++ c_hyphen :: rest) = None.
Proof. intros. now apply refuse_nonnumeric_start. Qed.
Print Assumptions C19_refuse_leading_hyphen.

(** non-numeric start: the first non-blank character after the colon is not in [0-9,] *)
Theorem C19_refuse_nonnumeric_start : forall name w x rest,
  forallb notcolon name = true -> forallb is_blank w = true ->
  is_blank x = false -> is_digit_or_comma x = false -> is_colon x = false ->
  parse_region_string (name ++ c_colon :: w ++ x :: rest) = None.
Proof. exact refuse_nonnumeric_start. Qed.
Print Assumptions C19_refuse_nonnumeric_start.

(** nothing but blanks after the colon *)
Theorem C19_refuse_no_coordinates : forall name w tail,
  forallb notcolon name = true -> forallb is_blank w = true -> colon_tail tail ->
  parse_region_string (name ++ c_colon :: w ++ tail) = None.
Proof.
  intros name w tail Hn Hw Ht.
  rewrite parse_region_string_pieces by auto using blank_notcolon.
  destruct (is_nil (strip name)); [reflexivity|].
  rewrite tokenize_eq. unfold match_at. rewrite drop_while_all by assumption.
  now destruct (last_non_newline w) as [[c r]|].
Qed.
Print Assumptions C19_refuse_no_coordinates.

(** non-numeric or negative end ("5--3", "5-x") *)
Theorem C19_refuse_nonnumeric_end : forall name w1 t1 w2 w3 x rest,
  forallb notcolon name = true ->
  forallb is_blank w1 = true -> forallb is_blank w2 = true -> forallb is_blank w3 = true ->
  ctok_ok_b t1 = true -> is_blank x = false -> is_digit_or_comma x = false -> is_colon x = false ->
  parse_region_string (name ++ c_colon :: w1 ++ ctok_str t1 ++ w2 ++ c_hyphen :: w3 ++ x :: rest) = None.
Proof. exact refuse_nonnumeric_end. Qed.
Print Assumptions C19_refuse_nonnumeric_end.

Theorem C19_refuse_reversed : forall name w1 t1 w2 w3 t2 junk a b,
  name_ok_b name = true ->
  forallb is_blank w1 = true -> forallb is_blank w2 = true -> forallb is_blank w3 = true ->
  ctok_ok_b t1 = true -> ctok_ok_b t2 = true -> tok_end junk ->
  ctok_val t1 = Some a -> ctok_val t2 = Some b -> b < a ->
  parse_region_string (name ++ c_colon :: w1 ++ ctok_str t1 ++ w2 ++ c_hyphen :: w3 ++ ctok_str t2 ++ junk) = None.
Proof.
  intros name w1 t1 w2 w3 t2 junk a b Hn Hw1 Hw2 Hw3 Ht1 Ht2 Hj V1 V2 L.
  rewrite region_grammar_closed, V1, V2 by assumption. cbn. now apply Z.ltb_lt in L as ->.
Qed.
Print Assumptions C19_refuse_reversed.

(** unknown unit in either coordinate of a region string *)
Theorem C19_refuse_unknown_unit_region : forall name w1 t1 w2 w3 t2 junk,
  name_ok_b name = true ->
  forallb is_blank w1 = true -> forallb is_blank w2 = true -> forallb is_blank w3 = true ->
  ctok_ok_b t1 = true -> ctok_ok_b t2 = true -> tok_end junk ->
  (t_al t1 <> [] /\ unit_mult (map to_upper (t_al t1)) = None) \/
  (t_al t2 <> [] /\ unit_mult (map to_upper (t_al t2)) = None) ->
  parse_region_string (name ++ c_colon :: w1 ++ ctok_str t1 ++ w2 ++ c_hyphen :: w3 ++ ctok_str t2 ++ junk) = None.
Proof.
  intros name w1 t1 w2 w3 t2 junk Hn Hw1 Hw2 Hw3 Ht1 Ht2 Hj [[A B]|[A B]];
    rewrite region_grammar_closed by assumption; unfold ctok_val, region_result;
    rewrite (coord_value_unknown_unit _ _ _ _ A B); [reflexivity|now destruct (coord_value _ _ _ (t_al t1))].
Qed.
Print Assumptions C19_refuse_unknown_unit_region.

(** coordinates are never negative *)
Theorem C19_token_value_nonneg : forall t v, ctok_ok_b t = true -> ctok_val t = Some v -> 0 <= v.
Proof. exact ctok_val_nonneg. Qed.
Print Assumptions C19_token_value_nonneg.

(** the accepted language, exactly (both directions, all strings): a string is accepted with a closed
    range (c, a, b) iff it is  n0 ":" w1 COORD w2 "-" w3 COORD junk tail  with n0 colon-free, strip n0 = c
    non-empty, w* blanks, the tokens valued a <= b, junk colon-free text that cannot extend the second token
    ([munch_end]: maximal munch) and tail empty or starting with ':'.  Everything else is refused or falls
    under the open-end / bare-name forms below. *)
Theorem C19_region_language_closed : forall s c a b,
  parse_region_string s = Some (c, Some a, Some b) <->
  exists n0 w1 t1 w2 w3 t2 junk tail,
    s = n0 ++ c_colon :: (w1 ++ ctok_str t1 ++ w2 ++ c_hyphen :: w3 ++ ctok_str t2 ++ junk) ++ tail /\
    forallb notcolon n0 = true /\ strip n0 = c /\ c <> [] /\
    forallb is_blank w1 = true /\ forallb is_blank w2 = true /\ forallb is_blank w3 = true /\
    ctok_ok_b t1 = true /\ ctok_ok_b t2 = true /\
    forallb notcolon junk = true /\ munch_end t2 junk /\ colon_tail tail /\
    ctok_val t1 = Some a /\ ctok_val t2 = Some b /\ a <= b.
Proof. exact region_language_closed. Qed.
Print Assumptions C19_region_language_closed.

Theorem C19_region_language_open : forall s c a,
  parse_region_string s = Some (c, Some a, None) <->
  exists n0 w1 t1 w2 nl tail,
    s = n0 ++ c_colon :: (w1 ++ ctok_str t1 ++ w2 ++ c_hyphen :: nl) ++ tail /\
    forallb notcolon n0 = true /\ strip n0 = c /\ c <> [] /\
    forallb is_blank w1 = true /\ forallb is_blank w2 = true /\ forallb is_newline nl = true /\
    ctok_ok_b t1 = true /\ colon_tail tail /\ ctok_val t1 = Some a.
Proof. exact region_language_open. Qed.
Print Assumptions C19_region_language_open.

Theorem C19_region_language_bare : forall s c,
  parse_region_string s = Some (c, None, None) <->
  forallb notcolon s = true /\ strip s = c /\ c <> [].
Proof. exact region_language_bare. Qed.
Print Assumptions C19_region_language_bare.

(** "or are refused", for ALL strings: whatever parse_region_string accepts is a non-empty colon-free
    name without blanks at its ends and either no coordinates or 0 <= start (<= end) *)
Theorem C19_parse_region_string_sound : forall s c oa ob,
  parse_region_string s = Some (c, oa, ob) ->
  c <> [] /\ forallb notcolon c = true /\ stops is_blank c /\ stops is_blank (rev c) /\
  ((oa = None /\ ob = None) \/
   exists a, oa = Some a /\ 0 <= a /\ forall b, ob = Some b -> a <= b).
Proof. exact parse_region_string_sound. Qed.
Print Assumptions C19_parse_region_string_sound.

Theorem C19_parse_humanized_nonneg : forall s v, parse_humanized s = Some v -> 0 <= v.
Proof. exact parse_humanized_nonneg. Qed.
Print Assumptions C19_parse_humanized_nonneg.

(** the tokenizer's fuel is never exhausted: it satisfies the defining equation of re.finditer *)
Theorem C19_tokenize_unfold : forall s,
  tokenize s = match match_at s with None => [] | Some (t, rest) => t :: tokenize rest end.
Proof. exact tokenize_eq. Qed.
Print Assumptions C19_tokenize_unfold.

(** whatever parse_region returns is a known chromosome with 0 <= start <= end <= length, start and end
    being the parsed ones or the defaults 0 / length *)
Theorem C19_parse_region_sound : forall s cs c a b,
  parse_region s cs = Some (c, a, b) ->
  0 <= a <= b /\
  (exists oa ob, parse_region_string s = Some (c, oa, ob) /\ (oa = Some a \/ oa = None /\ a = 0) /\
                 match cs with
                 | None => ob = Some b
                 | Some t => exists L, lookup c t = Some L /\ b <= L /\ (ob = Some b \/ ob = None /\ b = L)
                 end).
Proof. exact parse_region_sound. Qed.
Print Assumptions C19_parse_region_sound.

Theorem C19_parse_region_complete : forall s t c oa ob L,
  parse_region_string s = Some (c, oa, ob) -> lookup c t = Some L ->
  let a := match oa with Some a => a | None => 0 end in
  let b := match ob with Some b => b | None => L end in
  0 <= a <= b -> b <= L ->
  parse_region s (Some t) = Some (c, a, b).
Proof. exact parse_region_complete. Qed.
Print Assumptions C19_parse_region_complete.

Theorem C19_parse_region_unknown_name : forall s t c oa ob,
  parse_region_string s = Some (c, oa, ob) -> lookup c t = None -> parse_region s (Some t) = None.
Proof. exact parse_region_unknown_name. Qed.
Print Assumptions C19_parse_region_unknown_name.

Theorem C19_parse_region_beyond_end : forall s t c oa b L,
  parse_region_string s = Some (c, oa, Some b) -> lookup c t = Some L -> L < b -> parse_region s (Some t) = None.
Proof. exact parse_region_beyond_end. Qed.
Print Assumptions C19_parse_region_beyond_end.

(** parse_region on a formatted region: accepted exactly within the chromosome *)
Theorem C19_parse_region_format_roundtrip : forall name s e t L,
  name_ok_b name = true -> lookup name t = Some L -> 0 <= s <= e -> e <= L ->
  parse_region (name ++ c_colon :: dec s ++ c_hyphen :: dec e) (Some t) = Some (name, s, e).
Proof.
  intros name s e t L Hn Hl Hse HeL.
  apply (parse_region_complete _ t name (Some s) (Some e) L); try assumption; now apply parse_format_roundtrip.
Qed.
Print Assumptions C19_parse_region_format_roundtrip.

Theorem C19_parse_region_format_beyond : forall name s e t L,
  name_ok_b name = true -> lookup name t = Some L -> 0 <= s <= e -> L < e ->
  parse_region (name ++ c_colon :: dec s ++ c_hyphen :: dec e) (Some t) = None.
Proof.
  intros name s e t L Hn Hl Hse HeL.
  apply (parse_region_beyond_end _ t name (Some s) e L); try assumption; now apply parse_format_roundtrip.
Qed.
Print Assumptions C19_parse_region_format_beyond.

Theorem C19_parse_region_format_unknown : forall name s e t,
  name_ok_b name = true -> lookup name t = None -> 0 <= s <= e ->
  parse_region (name ++ c_colon :: dec s ++ c_hyphen :: dec e) (Some t) = None.
Proof.
  intros name s e t Hn Hl Hse.
  apply (parse_region_unknown_name _ t name (Some s) (Some e)); try assumption; now apply parse_format_roundtrip.
Qed.
Print Assumptions C19_parse_region_format_unknown.

(** defaults: bare name = whole chromosome, open end = up to the length *)
Theorem C19_parse_region_defaults : forall name t L s,
  name_ok_b name = true -> lookup name t = Some L -> 0 <= s <= L ->
  parse_region name (Some t) = Some (name, 0, L) /\
  parse_region (name ++ c_colon :: dec s ++ [c_hyphen]) (Some t) = Some (name, s, L).
Proof.
  intros name t L s Hn Hl Hs. split.
  - apply (parse_region_complete _ t name None None L); auto using parse_region_string_bare; lia.
  - apply (parse_region_complete _ t name (Some s) None L); try apply parse_format_roundtrip_open; auto; lia.
Qed.
Print Assumptions C19_parse_region_defaults.

(** [no_dcolon s]: no two adjacent colons in s; [last_notcolon f]: f does not end in ':' *)
Theorem C19_uri_plain : forall f, no_dcolon f = true -> parse_cooler_uri f = Some (f, [c_slash]).
Proof. intros f H. unfold parse_cooler_uri. now rewrite split_dcolon_none. Qed.
Print Assumptions C19_uri_plain.

Theorem C19_uri_split : forall f g,
  no_dcolon f = true -> last_notcolon f = true -> no_dcolon g = true ->
  parse_cooler_uri (f ++ c_colon :: c_colon :: g) = Some (f, norm_group g).
Proof. exact uri_split. Qed.
Print Assumptions C19_uri_split.

(** f::g and f::/g give the same pair (f, /g) *)
Theorem C19_uri_slash_invariant : forall f g,
  no_dcolon f = true -> last_notcolon f = true -> no_dcolon g = true ->
  match g with c :: _ => is_slash c = false | [] => True end ->
  parse_cooler_uri (f ++ c_colon :: c_colon :: g) = Some (f, c_slash :: g) /\
  parse_cooler_uri (f ++ c_colon :: c_colon :: c_slash :: g) = Some (f, c_slash :: g).
Proof.
  intros f g Hf Hl Hg Hs. split.
  - rewrite uri_split by assumption. unfold norm_group. destruct g; [reflexivity|now rewrite Hs].
  - rewrite uri_split; try assumption; [reflexivity|]. now destruct g.
Qed.
Print Assumptions C19_uri_slash_invariant.

(** two separators are refused, wherever they stand: ALL a, b, c *)
Theorem C19_uri_two_separators : forall a b c,
  parse_cooler_uri (a ++ c_colon :: c_colon :: b ++ c_colon :: c_colon :: c) = None.
Proof. exact uri_two_separators_any. Qed.
Print Assumptions C19_uri_two_separators.

(** every returned group path starts with '/' *)
Theorem C19_uri_group_rooted : forall s f g, parse_cooler_uri s = Some (f, g) ->
  exists c g', g = c :: g' /\ is_slash c = true.
Proof.
  intros s f g. unfold parse_cooler_uri.
  destruct (split_dcolon s) as [|p0 [|p1 [|p2 r]]]; try discriminate; intros [= <- <-].
  - now exists c_slash, [].
  - destruct p1 as [|x p1']; [now exists c_slash, []|].
    destruct (is_slash x) eqn:E; [now exists x, p1'|now exists c_slash, (x :: p1')].
Qed.
Print Assumptions C19_uri_group_rooted.

(** From a region STRING to the bins it selects (Proofs/RegionIntegration.v), composing with C04.
    [names] is the chromosome-name list (distinct), [blocks] the bin table in chromosome blocks (C04/C20:
    [ValidBlocks]); [extent_of_string] = Cooler.extent(str) = parse_region(str, chromsizes) followed by
    region_to_extent on the index of the parsed name; [bins_fetch_string] = Cooler.bins().fetch(str). *)

(** the bridge: a string fetch is the C19 parser followed by the C04 extent model *)
Theorem C19_fetch_is_parse_then_extent : forall names blocks s, length names = length blocks ->
  extent_of_string names blocks s =
  match parse_region_string s with
  | None => None
  | Some (c, oa, ob) =>
      match index_of c names with
      | None => None
      | Some i => Extent.extent blocks i oa ob
      end
  end.
Proof. exact extent_of_string_eq. Qed.
Print Assumptions C19_fetch_is_parse_then_extent.

(** "name:s-e": exactly the bins of chromosome i that overlap [s, e), a non-empty run inside the
    chromosome's span; bins().fetch returns exactly those rows *)
Theorem C19_fetch_string_overlap : forall names blocks,
  length names = length blocks -> NoDup names -> ValidBlocks blocks ->
  forall name i blk s e,
  name_ok_b name = true -> nth_error names i = Some name -> nth_error blocks i = Some blk ->
  0 <= s < e -> e <= chrom_len blk ->
  exists lo hi, extent_of_string names blocks (name ++ c_colon :: dec s ++ c_hyphen :: dec e) = Some (lo, hi) /\
    (forall k : nat, lo <= Z.of_nat k < hi <->
       exists x, nth_error (table blocks) k = Some x /\ bchrom x = Z.of_nat i /\ bstart x < e /\ s < bend x) /\
    chrom_offset blocks i <= lo < hi /\ hi <= chrom_offset blocks (S i) /\
    bins_fetch_string names blocks (name ++ c_colon :: dec s ++ c_hyphen :: dec e)
      = Some (filter (overlaps_b i s e) (table blocks)).
Proof. exact fetch_string_overlap. Qed.
Print Assumptions C19_fetch_string_overlap.

(** the same with thousands separators, any comma placement *)
Theorem C19_fetch_string_overlap_commas : forall names blocks,
  length names = length blocks -> NoDup names -> ValidBlocks blocks ->
  forall name i blk s e cs ce,
  name_ok_b name = true -> nth_error names i = Some name -> nth_error blocks i = Some blk ->
  0 <= s < e -> e <= chrom_len blk ->
  forallb is_digit_or_comma cs = true -> remove_commas cs = dec s ->
  forallb is_digit_or_comma ce = true -> remove_commas ce = dec e ->
  exists lo hi, extent_of_string names blocks (name ++ c_colon :: cs ++ c_hyphen :: ce) = Some (lo, hi) /\
    (forall k : nat, lo <= Z.of_nat k < hi <->
       exists x, nth_error (table blocks) k = Some x /\ bchrom x = Z.of_nat i /\ bstart x < e /\ s < bend x) /\
    chrom_offset blocks i <= lo < hi /\ hi <= chrom_offset blocks (S i) /\
    bins_fetch_string names blocks (name ++ c_colon :: cs ++ c_hyphen :: ce)
      = Some (filter (overlaps_b i s e) (table blocks)).
Proof. exact fetch_string_overlap_commas. Qed.
Print Assumptions C19_fetch_string_overlap_commas.

Theorem C19_fetch_string_overlap_grouped : forall names blocks,
  length names = length blocks -> NoDup names -> ValidBlocks blocks ->
  forall name i blk s e,
  name_ok_b name = true -> nth_error names i = Some name -> nth_error blocks i = Some blk ->
  0 <= s < e -> e <= chrom_len blk ->
  bins_fetch_string names blocks (name ++ c_colon :: dec_commas s ++ c_hyphen :: dec_commas e)
    = Some (filter (overlaps_b i s e) (table blocks)).
Proof. exact fetch_string_overlap_grouped. Qed.
Print Assumptions C19_fetch_string_overlap_grouped.

(** bare name: exactly the chromosome's span of the table *)
Theorem C19_fetch_bare_name : forall names blocks,
  length names = length blocks -> NoDup names -> ValidBlocks blocks ->
  forall name i blk,
  name_ok_b name = true -> nth_error names i = Some name -> nth_error blocks i = Some blk ->
  extent_of_string names blocks name = Some (chrom_offset blocks i, chrom_offset blocks (S i)).
Proof. exact fetch_bare_name. Qed.
Print Assumptions C19_fetch_bare_name.

(** open end "name:s-": the bins of chromosome i overlapping [s, L_i) *)
Theorem C19_fetch_open_end : forall names blocks,
  length names = length blocks -> NoDup names -> ValidBlocks blocks ->
  forall name i blk s,
  name_ok_b name = true -> nth_error names i = Some name -> nth_error blocks i = Some blk ->
  0 <= s < chrom_len blk ->
  exists lo hi, extent_of_string names blocks (name ++ c_colon :: dec s ++ [c_hyphen]) = Some (lo, hi) /\
    (forall k : nat, lo <= Z.of_nat k < hi <->
       exists x, nth_error (table blocks) k = Some x /\ bchrom x = Z.of_nat i /\
                 bstart x < chrom_len blk /\ s < bend x) /\
    chrom_offset blocks i <= lo < hi /\ hi <= chrom_offset blocks (S i).
Proof. exact fetch_open_end. Qed.
Print Assumptions C19_fetch_open_end.

(** refused strings never reach region_to_extent: reversed or beyond the end ... *)
Theorem C19_fetch_refused : forall names blocks,
  length names = length blocks -> NoDup names ->
  forall name i blk s e,
  name_ok_b name = true -> nth_error names i = Some name -> nth_error blocks i = Some blk ->
  0 <= s -> 0 <= e -> (e < s \/ chrom_len blk < e) ->
  parse_region (name ++ c_colon :: dec s ++ c_hyphen :: dec e) (Some (chromsizes_table names blocks)) = None /\
  extent_of_string names blocks (name ++ c_colon :: dec s ++ c_hyphen :: dec e) = None.
Proof. exact fetch_refused. Qed.
Print Assumptions C19_fetch_refused.

(** ... or an unknown name, however the rest of the string is written *)
Theorem C19_fetch_unknown_name : forall names blocks,
  length names = length blocks ->
  forall str c oa ob,
  parse_region_string str = Some (c, oa, ob) -> ~ In c names ->
  parse_region str (Some (chromsizes_table names blocks)) = None /\
  extent_of_string names blocks str = None.
Proof. exact fetch_unknown_name. Qed.
Print Assumptions C19_fetch_unknown_name.

(** conversely, for EVERY string: region_to_extent is only ever reached with a known chromosome and
    0 <= start <= end <= its length (the hypotheses of the C04 theorems) *)
Theorem C19_fetch_reaches_extent_in_bounds : forall names blocks,
  length names = length blocks ->
  forall str r,
  extent_of_string names blocks str = Some r ->
  exists c oa ob i blk a b,
    parse_region_string str = Some (c, oa, ob) /\ nth_error names i = Some c /\
    nth_error blocks i = Some blk /\ 0 <= a <= b /\ b <= chrom_len blk /\
    a = ExtentProofs.dflt 0 oa /\ b = ExtentProofs.dflt (chrom_len blk) ob /\
    r = region_to_extent blocks i a b.
Proof. exact fetch_reaches_extent_in_bounds. Qed.
Print Assumptions C19_fetch_reaches_extent_in_bounds.

(** parse, render "file::group", parse again: a fixed point (what C15's uri_slash relies on) *)
Theorem C19_uri_normal_form : forall f g,
  no_dcolon f = true -> last_notcolon f = true -> no_dcolon g = true ->
  exists r, parse_cooler_uri (f ++ c_colon :: c_colon :: g) = Some r /\
            r = (f, norm_group g) /\
            parse_cooler_uri (render_uri r) = Some r.
Proof. exact uri_normal_form. Qed.
Print Assumptions C19_uri_normal_form.

(** for EVERY accepted URI whose file part does not end in ':' *)
Theorem C19_uri_render_idempotent : forall s r,
  parse_cooler_uri s = Some r -> last_notcolon (fst r) = true ->
  parse_cooler_uri (render_uri r) = Some r.
Proof. exact uri_render_idempotent. Qed.
Print Assumptions C19_uri_render_idempotent.

Example ex_C19_D6_regression :
  parse_humanized (lit "1.001k") = Some 1001 /\
  parse_region_string (lit "chr1:1.001k-2.5Mb") = Some (lit "chr1", Some 1001, Some 2500000).
Proof. vm_compute. split; reflexivity. Qed.

Example ex_C19_names :
  name_ok_b (lit "chr-2.x y") = true /\ name_ok_b (lit " chr1") = false /\ name_ok_b (lit "a:b") = false /\
  name_ok_b (lit "") = false /\
  parse_region_string (lit "chr-2.x y:1,000-2,000,000") = Some (lit "chr-2.x y", Some 1000, Some 2000000).
Proof. vm_compute. repeat split; reflexivity. Qed.

Example ex_C19_format :
  fmt_region (lit "chr1") 0 1234567 = lit "chr1:0-1234567" /\ dec_commas 1234567 = lit "1,234,567" /\
  dec_commas 999 = lit "999" /\ dec_commas 1000 = lit "1,000".
Proof. vm_compute. repeat split; reflexivity. Qed.

Example ex_C19_token :
  let t := mk_ctok (lit "12,345") true (lit "678") (lit "kb") in
  ctok_ok_b t = true /\ ctok_str t = lit "12,345.678kb" /\ ctok_val t = Some 12345678.
Proof. vm_compute. repeat split; reflexivity. Qed.

Example ex_C19_refusals :
  parse_region_string (lit ":1-2") = None /\ parse_region_string (lit "chr1:10") = None /\
  parse_region_string (lit "chr1:-5-10") = None /\ parse_region_string (lit "chr1:x-10") = None /\
  parse_region_string (lit "chr1:20-10") = None /\ parse_region_string (lit "chr1:1kk-2") = None /\
  parse_region_string (lit "chr1:5--3") = None.
Proof. vm_compute. repeat split; reflexivity. Qed.

(** behaviour the property does not list, kept visible: a non-integral scaled value is truncated,
    text after the third token is ignored *)
Example ex_C19_visible_leniency :
  parse_humanized (lit "1.0001k") = Some 1000 /\
  parse_region_string (lit "chr1:10-20-30") = Some (lit "chr1", Some 10, Some 20) /\
  parse_region_string (lit "chr1:1-2:junk") = Some (lit "chr1", Some 1, Some 2).
Proof. vm_compute. repeat split; reflexivity. Qed.

Example ex_C19_uri :
  parse_cooler_uri (lit "a/b.mcool::resolutions/10") = Some (lit "a/b.mcool", lit "/resolutions/10") /\
  parse_cooler_uri (lit "a/b.mcool::/resolutions/10") = Some (lit "a/b.mcool", lit "/resolutions/10") /\
  parse_cooler_uri (lit "a/b.cool") = Some (lit "a/b.cool", lit "/") /\
  parse_cooler_uri (lit "a::b::c") = None /\
  no_dcolon (lit "C:/x.cool") = true /\ last_notcolon (lit "C:/x.cool") = true /\ no_dcolon (lit "a::b") = false.
Proof. vm_compute. repeat split; reflexivity. Qed.

Example ex_C19_parse_region :
  let cs := Some [(lit "chr1", 1000); (lit "chr 2", 500)] in
  parse_region (lit "chr1:0.1k-1k") cs = Some (lit "chr1", 100, 1000) /\
  parse_region (lit "chr1:0.1k-1.001k") cs = None /\
  parse_region (lit "chr 2") cs = Some (lit "chr 2", 0, 500) /\
  parse_region (lit "chr 2:100-") cs = Some (lit "chr 2", 100, 500) /\
  parse_region (lit "chr3:1-2") cs = None /\
  parse_region (lit "chr1:5-") None = None.
Proof. vm_compute. repeat split; reflexivity. Qed.

Example ex_C19_fetch_string :
  let names := [lit "chr1"; lit "a b"] in
  let blocks := [[(0,0,10);(0,10,20);(0,20,25)]; [(1,0,7);(1,7,9)]] in
  valid_blocks_b blocks = true /\ name_ok_b (lit "a b") = true /\
  extent_of_string names blocks (lit "chr1:10-21") = Some (1, 3) /\
  extent_of_string names blocks (lit "chr1:0.01k-0.021k") = Some (1, 3) /\
  extent_of_string names blocks (lit "a b") = Some (3, 5) /\
  extent_of_string names blocks (lit "a b:7-") = Some (4, 5) /\
  bins_fetch_string names blocks (lit "a b:1-8") = Some [(1,0,7);(1,7,9)] /\
  extent_of_string names blocks (lit "chr1:21-10") = None /\
  extent_of_string names blocks (lit "chr1:0-26") = None /\
  extent_of_string names blocks (lit "chr2:0-5") = None /\
  render_uri (lit "a.cool", lit "/g") = lit "a.cool::/g".
Proof. vm_compute. repeat split; reflexivity. Qed.

(** the tail of util.parse_region as translated from util.py on every run ([Gen.parse_region_tail]) is the model's
    [check_region], with and without a chromsizes table: the refusals proved above ("end < start", "out of bounds",
    "cannot determine end") are the comparisons the source makes. *)
From Cooler Require Import Gen.Translated Proofs.GenBridgeRegion.
Theorem C19_source_parse_region_is_model : forall chrom os oe cs,
  Text.check_region (chrom, os, oe) cs =
  match (match cs with
         | None => Some None
         | Some t => match Text.lookup chrom t with None => None | Some l => Some (Some l) end
         end) with
  | None => None
  | Some clen => match Gen.parse_region_tail os oe clen with None => None | Some (s', e') => Some (chrom, s', e') end
  end.
Proof. exact gen_parse_region_is_text_model. Qed.
Print Assumptions C19_source_parse_region_is_model.

Theorem C19_parse_region_source_pins : Gen.parse_region_source_pins = true.
Proof. reflexivity. Qed.
Print Assumptions C19_parse_region_source_pins.

(** C01  Create-then-read round trip returns exactly the matrix that was stored.
    Statements.  A proof here is [exact] of the lemma with the same statement, a few lines from the general lemmas, or an evaluation for a concrete witness;
    the lemmas are in Proofs/CreateProofs.v (Proofs/EndToEnd.v for the read through the engine, Proofs/GenBridgeCreate.v for the source tie).  The payload type V of a pixel record is arbitrary
    (count only, or count plus any extra value columns), so every statement holds for every value column. *)
From Cooler Require Import Model.Create Proofs.PixelsProofs Proofs.CreateProofs.
From Coq Require Import Permutation Sorting.Sorted.
From Cooler Require Model.Query Model.Index Proofs.QueryProofs Proofs.IndexProofs Proofs.EndToEnd.

(** the writing loop alone (no validator, empty datasets).  For EVERY chunk list - any sizes, empty
    chunks, no chunk - if no write fails, the stored columns are exactly the concatenation of the chunks, the returned
    nnz is its length and the returned total is the sum of the count column.  (Loop invariant: the first nnz stored
    rows are the concatenation of the chunks consumed so far; each chunk is written at offset nnz after a resize.) *)
Theorem C01_write_pixels_concat :
  forall (V : Type) (dflt : key * V) (fits : key * V -> bool) (count : option (key * V -> Z))
         (maxsize : Z) (chunks : list (list (key * V))) (r : wstate),
  write_pixels dflt fits count (fun c => inr c) maxsize ([], 0, 0) chunks = inr r ->
  r = (concat chunks, zlen (concat chunks), chunk_total count (concat chunks)).
Proof. exact @write_pixels_concat. Qed.
Print Assumptions C01_write_pixels_concat.

(** the same through create(): for EVERY chunk list (any sizes, empty chunks and the empty
    list included), if creation succeeds then the stored columns and the pixel table read back as exactly the
    concatenation of the chunks (each chunk sorted first when ensure_sorted is set), nnz is its length, sum is
    the total of the count column; and every chunk satisfied the enabled checks. *)
Theorem C01_create_pixels_roundtrip :
  forall (V : Type) (dflt : key * V) (fits : key * V -> bool) (count : option (key * V -> Z))
         (n : Z) (su bc tc dc es : bool) (chunks : list (list (key * V))) (c : cool),
  create dflt fits count n su bc tc dc es chunks = inr c ->
  let stream := concat (map (prep es) chunks) in
  c_rows c = stream /\
  read_pixels c = stream /\
  c_nnz c = zlen stream /\
  c_sum c = chunk_total count stream /\
  c_symm c = su /\ c_nbins c = n /\
  Forall (chunk_ok n bc (tc && su) dc) chunks /\
  Forall (fun r => fits r = true) stream /\
  (chunks <> [] -> zlen stream <= max_size n su).
Proof. exact @create_ok_spec. Qed.
Print Assumptions C01_create_pixels_roundtrip.

(** conversely every stream whose chunks pass the checks, whose values fit the output dtypes and that is not
    longer than max_size IS accepted (so the round trip above is not vacuous for any valid input) *)
Theorem C01_create_succeeds :
  forall (V : Type) (dflt : key * V) (fits : key * V -> bool) (count : option (key * V -> Z))
         (n : Z) (su bc tc dc es : bool) (chunks : list (list (key * V))),
  Forall (chunk_ok n bc (tc && su) dc) chunks ->
  Forall (fun r => fits r = true) (concat chunks) ->
  zlen (concat chunks) <= max_size n su ->
  exists c, create dflt fits count n su bc tc dc es chunks = inr c.
Proof. exact @create_succeeds. Qed.
Print Assumptions C01_create_succeeds.

(** non-vacuity: a 3-chunk stream with an empty chunk over 3 bins is created and reads back *)
Example ex_C01_roundtrip :
  let chunks := [[((0,0),[1]); ((0,2),[5])]; []; [((1,1),[7])]] in
  exists c, create ((0,0),[0]) (fun _ => true) (Some (fun r => hd 0 (snd r))) 3 true true true true false chunks = inr c
            /\ read_pixels c = concat chunks /\ c_nnz c = 3 /\ c_sum c = 13.
Proof. vm_compute. eexists. repeat split. Qed.

(** end to end, no vacuity: EVERY strictly sorted, in-range (upper-triangular in symmetric mode) stream whose values
    fit the output dtypes, cut into chunks in ANY way (empty chunks, no chunk at all), is accepted with all default
    checks on - the max_size limit of the datasets can never be hit - and reads back exactly *)
Theorem C01_create_valid_stream :
  forall (V : Type) (dflt : key * V) (fits : key * V -> bool) (count : option (key * V -> Z))
         (n : Z) (su : bool) (chunks : list (list (key * V))),
  0 <= n ->
  let stream := concat chunks in
  StronglySorted klt (map fst stream) ->
  Forall (fun r => 0 <= fst (fst r) < n /\ 0 <= snd (fst r) < n) stream ->
  (su = true -> Forall (fun r => fst (fst r) <= snd (fst r)) stream) ->
  Forall (fun r => fits r = true) stream ->
  exists c, create dflt fits count n su true true true false chunks = inr c /\
            c_rows c = stream /\ read_pixels c = stream /\ c_nnz c = zlen stream /\
            c_sum c = chunk_total count stream /\ c_symm c = su.
Proof. exact @create_valid_stream. Qed.
Print Assumptions C01_create_valid_stream.

(** the full-matrix view.  For every accepted stream (default triangularity check) and
    every value column f, the dense full matrix is the symmetric completion of the input (symmetric-upper) or the
    input itself (square); the sparse view agrees cell by cell; for a strictly sorted stream every key of the
    completion occurs exactly once and nothing else is present.  (The full-window read is defined directly from
    the stored table; that the range-query engine computes it is C03's theorem.) *)
Theorem C01_create_matrix_roundtrip :
  forall (V : Type) (dflt : key * V) (fits : key * V -> bool) (count : option (key * V -> Z))
         (n : Z) (su bc dc : bool) (chunks : list (list (key * V))) (c : cool) (f : V -> Z),
  create dflt fits count n su bc true dc false chunks = inr c ->
  let px := px_of f (concat chunks) in
  let got := px_of f (read_pixels c) in
  (forall i j, dense_full (c_symm c) got i j = if su then symm px i j else look px (i, j)) /\
  (forall i j, look (sparse_full (c_symm c) got) (i, j) = if su then symm px i j else look px (i, j)) /\
  (SSorted px ->
     NoDup (keys (sparse_full (c_symm c) got)) /\
     forall i j, In (i, j) (keys (sparse_full (c_symm c) got)) <->
                 In (i, j) (keys px) \/ (su = true /\ i <> j /\ In (j, i) (keys px))).
Proof. exact @create_matrix_roundtrip. Qed.
Print Assumptions C01_create_matrix_roundtrip.

(** for EVERY array and EVERY chunksize >= 1 the concatenation of ArrayLoader's chunks is
    strictly sorted, upper triangular, and holds exactly the non-zero entries on or above the diagonal with
    their values; all ids are in range when the array is square *)
Theorem C01_array_loader_spec : forall (A : list (list Z)) (c : Z), 1 <= c ->
  let out := concat (array_loader A c) in
  SSorted out /\
  (forall i j v, In ((i, j), v) out <->
     0 <= i <= j /\ v <> 0 /\ exists xs, nth_error A (Z.to_nat i) = Some xs /\ nth_error xs (Z.to_nat j) = Some v) /\
  upper_b out = true /\
  (forall n, square n A -> inrange_b n out = true).
Proof. exact array_loader_spec. Qed.
Print Assumptions C01_array_loader_spec.

(** ... and it does not depend on the chunksize at all *)
Theorem C01_array_loader_chunksize_independent : forall A c, 1 <= c ->
  concat (array_loader A c) = triu_entries A.
Proof. exact array_loader_concat. Qed.
Print Assumptions C01_array_loader_chunksize_independent.

(** create_cooler on a frame / dict: the single chunk handed to create is a permutation of the frame, sorted by
    (bin1, bin2); strictly sorted when the frame has no repeated key; the same whatever the row order; and a
    frame that is already sorted is passed through unchanged *)
Theorem C01_frame_sorted : forall (V : Type) (frame : list (key * V)),
  Permutation (sort_rows frame) frame /\ RSorted (sort_rows frame) /\
  (NoDup (map fst frame) -> StronglySorted klt (map fst (sort_rows frame))).
Proof. intros V frame. split; [apply sort_rows_perm|]. split; [apply sort_rows_sorted|apply sort_rows_ssorted]. Qed.
Print Assumptions C01_frame_sorted.

Theorem C01_frame_order_independent : forall (V : Type) (frame frame' : list (key * V)),
  NoDup (map fst frame) -> Permutation frame frame' -> sort_rows frame = sort_rows frame'.
Proof.
  intros V frame frame' Hnd Hp. apply ssorted_perm_eq; [now apply sort_rows_ssorted| |now rewrite !sort_rows_perm].
  apply sort_rows_ssorted. now rewrite <- Hp.
Qed.
Print Assumptions C01_frame_order_independent.

Theorem C01_frame_sorted_unchanged : forall (V : Type) (frame : list (key * V)),
  StronglySorted klt (map fst frame) -> sort_rows frame = frame.
Proof. intros V frame Hs. apply ssorted_perm_eq; auto using sort_rows_perm. now apply sort_rows_ssorted, (ssorted_nodup klt klt_irrefl). Qed.
Print Assumptions C01_frame_sorted_unchanged.

(** metadata round trip under the hypothesis that the JSON library round-trips the document;
    assembly: guarded statement, mechanism of the known finding D13, and refutation of the unguarded one *)
Theorem C01_metadata_roundtrip :
  forall (J : Type) (loads : string -> option J) (dumps : J -> string),
  (forall d, loads (dumps d) = Some d) ->
  forall empty_doc d, info_metadata loads dumps empty_doc (Some d) = inl d /\
                      info_metadata loads dumps empty_doc None = inl empty_doc.
Proof.
  intros J loads dumps H e d. split; [now apply metadata_roundtrip|].
  unfold info_metadata, info_decode, attr_metadata. now rewrite H.
Qed.
Print Assumptions C01_metadata_roundtrip.

Theorem C01_assembly_roundtrip_guarded :
  forall (J : Type) (loads : string -> option J) (a : string),
  loads a = None -> info_assembly loads (Some a) = inr a.
Proof. exact @assembly_roundtrip. Qed.
Print Assumptions C01_assembly_roundtrip_guarded.

Theorem C01_assembly_roundtrip_refuted :
  exists a : string, info_assembly json_word (Some a) <> inr a /\ info_assembly json_word (Some a) = inl (JInt 123).
Proof. exact assembly_roundtrip_refuted. Qed.
Print Assumptions C01_assembly_roundtrip_refuted.

(** the guard in syntactic form, for the exact decode rule of word-like strings: a name containing any character
    other than a digit, '-', 'e', 'E' (hg19, mm10, GRCh38, T2T-CHM13v2 ...) and different from true/false/null is
    returned unchanged by info() *)
Theorem C01_assembly_name_safe : forall s : string,
  has_bad s = true -> s <> "true"%string -> s <> "false"%string -> s <> "null"%string ->
  info_assembly json_word (Some s) = inr s.
Proof.
  intros s Hb H1 H2 H3. apply assembly_roundtrip. unfold json_word.
  rewrite (proj2 (String.eqb_neq _ _) H1), (proj2 (String.eqb_neq _ _) H2), (proj2 (String.eqb_neq _ _) H3).
  destruct (json_number s) eqn:E; [|reflexivity]. apply json_number_not_bad in E. congruence.
Qed.
Print Assumptions C01_assembly_name_safe.

(** non-vacuity *)
Example ex_C01_array_loader :
  array_loader [[1;0;2];[3;4;0];[0;5;6]] 2 = [[((0,0),1); ((0,2),2); ((1,1),4)]; [((2,2),6)]] /\
  square 3 [[1;0;2];[3;4;0];[0;5;6]].
Proof. split; [reflexivity|]. split; [reflexivity|]. repeat constructor. Qed.
Example ex_C01_sparse_full :
  sparse_full true [((0,0),1); ((0,2),5)] = [((0,0),1); ((0,2),5); ((2,0),5)] /\
  ssorted_b [((0,0),1); ((0,2),5)] = true /\ upper_b [((0,0),1); ((0,2),5)] = true.
Proof. vm_compute. repeat split. Qed.
Example ex_C01_frame :
  sort_rows [((1,1),3); ((0,2),2); ((0,0),1)] = [((0,0),1); ((0,2),2); ((1,1),3)].
Proof. reflexivity. Qed.
Example ex_C01_safe_names :
  map has_bad ["hg19"; "mm10"; "T2T-CHM13v2"; "123"; "1e5"; "-7"]%string = [true; true; true; false; false; false].
Proof. reflexivity. Qed.
Example ex_C01_words :
  map json_word ["123"; "-0"; "0123"; "1e5"; "true"; "null"; "hg19"; "NaN"; "e5"]%string =
  [Some (JInt 123); Some (JInt 0); None; Some JFloatLit; Some (JBool true); Some JNull; None; None; None].
Proof. reflexivity. Qed.

(** integration with C02 and C03: creating a collection from a sorted, in-range, upper-triangular stream (index written by
    the modelled index_pixels) and reading it back THROUGH THE MODEL OF THE QUERY ENGINE (get_spans with any chunk size,
    the fill-lower plan, the reader) gives, for every window, the stored records resp. the sub-block of the symmetric
    completion of the input, each coordinate once.  (Proofs/EndToEnd.v; uses C02_create_valid and the C03 theorems.) *)
Theorem C01_create_then_query_through_engine : forall n_chroms chroms (px : list Pixels.pixel) cs i0 i1 j0 j1,
  0 <= n_chroms -> IndexProofs.NonDecr chroms -> (forall x, In x chroms -> 0 <= x < n_chroms) ->
  SSorted px ->
  (forall p, In p px -> 0 <= Pixels.row p < zlen chroms /\ 0 <= Pixels.col p < zlen chroms) ->
  (forall p, In p px -> Pixels.row p <= Pixels.col p) ->
  1 <= cs -> 0 <= i0 -> i0 <= i1 -> i1 <= zlen chroms -> 0 <= j0 -> j0 <= j1 -> j1 <= zlen chroms ->
  exists c, Index.create_model n_chroms chroms px true = Some c /\ Index.pixels_of c = px /\
    Query.direct_query (Query.epx_of px) (Index.bin1_offset c) (Query.get_spans (Index.bin1_offset c) cs) (i0, i1, j0, j1)
      = filter (fun r => QueryProofs.in_window (i0, i1, j0, j1) (snd r)) (Query.epx_of px) /\
    exists out, Query.fill_lower_query (Query.epx_of px) (Index.bin1_offset c) (Query.get_spans (Index.bin1_offset c) cs) (i0, i1, j0, j1) = Some out /\
      NoDup (Pixels.keys (map snd out)) /\
      Query.dense_of out (i0, i1, j0, j1) =
      map (fun i => map (fun j => Pixels.symm px i j) (zrange j0 (Z.to_nat (j1 - j0)))) (zrange i0 (Z.to_nat (i1 - i0))).
Proof. exact EndToEnd.create_then_query. Qed.
Print Assumptions C01_create_then_query_through_engine.

(** ---- tie to the source: the fit check and the store statements of write_pixels and the validator chaining of
    create() are pinned in the source on every run (tools/py2v.py; the constants exist only if the statements are
    unchanged), and the per-record predicates of the validator are translated (see Props/C13.v). *)
From Cooler Require Import Gen.Translated Proofs.GenBridgeCreate.
Theorem C01_source_pins : Gen.validate_pixels_source_pins = true /\ Gen.create_write_source_pins = true.
Proof. exact gen_validate_pins. Qed.
Print Assumptions C01_source_pins.

(** the deprecated `dtype=` spelling of `dtypes=` is resolved in one place and the resolved mapping is what the creators use: pinned
    in the source on every run (tools/py2v.py) *)
Theorem C01_dtypes_alias_source_pins : Gen.dtypes_alias_source_pins = true.
Proof. reflexivity. Qed.
Print Assumptions C01_dtypes_alias_source_pins.

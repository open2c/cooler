(** C16  Text export agrees with the API; re-importing it reproduces the cooler.
    Model: Model/Dump.v.  The general lemmas are in Proofs/DumpProofs.v (engines, annotator, readers, round trips),
    Proofs/DumpSpansProofs.v (the single-span chunking) and Proofs/DumpIntegration.v (get_spans of C03, collections of C02). *)
From Coq Require Import String Ascii QArith Permutation Sorted.
From Coq Require Import List.
From Cooler Require Import Model.Dump Proofs.PixelsProofs Proofs.DumpProofs Proofs.DumpSpansProofs Proofs.DumpIntegration.
From Cooler Require Model.Query Model.Index Proofs.QueryProofs Proofs.SpansProofs Proofs.IndexProofs.
Open Scope Z_scope.

(** dump_eq_query (direct engine): for every option setting, every row-sorted stored table and EVERY admissible
    chunking of the row range, the dump is: nothing when the engine yields no chunk; otherwise the annotated
    window filter of the stored table in storage order, preceded by the header line when -H is given. *)
Theorem C16_dump_eq_query_direct : forall c o cuts,
  o_fill o && d_symm c = false ->
  RowSorted (d_px c) ->
  AdmissibleCuts (d_px c) (bbox_of c o) (cuts (bbox_of c o)) ->
  dump_pixels c o cuts =
    if o_balanced o && no_weights c then None
    else match spans_of (cuts (bbox_of c o)) with
         | [] => Some []
         | _ :: _ =>
             match annot_chunk c o (window_select (d_px c) (bbox_of c o)) with
             | None => None
             | Some rows =>
                 match o_header o, header_of c o with
                 | true, Some h => Some (Header h :: body_of rows)
                 | _, _ => Some (body_of rows)
                 end
             end
         end.
Proof. exact dump_eq_query_direct. Qed.
Print Assumptions C16_dump_eq_query_direct.

(** chunk-size independence: the concatenation of the direct engine's chunks is the window filter for every
    admissible chunking, hence the same for any two *)
Theorem C16_direct_chunks_independent : forall px bb cuts1 cuts2,
  RowSorted px -> AdmissibleCuts px bb (cuts1 bb) -> AdmissibleCuts px bb (cuts2 bb) ->
  concat (direct_chunks px bb cuts1) = window_select px bb /\
  concat (direct_chunks px bb cuts1) = concat (direct_chunks px bb cuts2).
Proof.
  intros px bb cuts1 cuts2 Hs H1 H2. split; [now apply direct_chunks_concat|now rewrite !direct_chunks_concat].
Qed.
Print Assumptions C16_direct_chunks_independent.

Theorem C16_dump_chunk_independent : forall c o cuts1 cuts2,
  o_fill o && d_symm c = false ->
  RowSorted (d_px c) ->
  AdmissibleCuts (d_px c) (bbox_of c o) (cuts1 (bbox_of c o)) ->
  AdmissibleCuts (d_px c) (bbox_of c o) (cuts2 (bbox_of c o)) ->
  (spans_of (cuts1 (bbox_of c o)) = [] <-> spans_of (cuts2 (bbox_of c o)) = []) ->
  dump_pixels c o cuts1 = dump_pixels c o cuts2.
Proof. exact dump_chunk_independent. Qed.
Print Assumptions C16_dump_chunk_independent.

(** a strictly (bin1, bin2)-sorted table — what every cooler stores — is row-sorted *)
Theorem C16_stored_tables_are_row_sorted : forall px, SSorted px -> RowSorted px.
Proof. exact ssorted_rowsorted. Qed.
Print Assumptions C16_stored_tables_are_row_sorted.

(** read_fields_spec: ANY injective assignment of column numbers *)
Theorem C16_read_fields_spec : forall names nums rec,
  NoDup (map (num_of nums) names) ->
  (forall n, In n names -> 0 <= num_of nums n < Z.of_nat (length rec)) ->
  exists r, read_fields names nums rec = Some r /\
            Permutation (map fst r) names /\
            forall n, In n names -> assoc n r = Some (nth (Z.to_nat (num_of nums n)) rec EmptyString).
Proof. exact read_fields_spec. Qed.
Print Assumptions C16_read_fields_spec.

(** the defect D8 (repaired): the same statement is false of the old code *)
Theorem C16_read_fields_old_refuted :
  exists names nums rec n,
    In n names /\ NoDup (map (num_of nums) names) /\
    exists r, read_fields_old names nums rec = Some r /\
              assoc n r <> Some (nth (Z.to_nat (num_of nums n)) rec EmptyString).
Proof.
  exists ["foo"; "count"]%string, [("foo", 4); ("count", 2)]%string, ["0"; "1"; "7"; "x"; "9"]%string, "count"%string.
  split; [now right; left|]. split.
  - cbn. constructor; [intros [H|[]]; discriminate|]. constructor; [intros []|constructor].
  - eexists. split; [vm_compute; reflexivity|]. vm_compute. discriminate.
Qed.
Print Assumptions C16_read_fields_old_refuted.

Theorem C16_parse_print_Z : forall z, parse_Z (print_Z z) = Some z.
Proof. exact parse_print_Z. Qed.
Print Assumptions C16_parse_print_Z.

(** dump_eq_query (fill-lower engine, -f on a symmetric-upper cooler), membership: for every upper-triangular stored
    table, every window and every admissible chunking of every sub-box of the engine's plan, a record is produced iff
    it belongs to the symmetric completion and lies inside the window; the engine never reaches "This shouldn't happen" *)
Theorem C16_dump_eq_query_fill_in : forall px i0 i1 j0 j1 cuts q,
  Upper px -> i0 <= i1 -> j0 <= j1 -> PlanAdmissible px (i0, i1, j0, j1) cuts ->
  match fill_chunks px (i0, i1, j0, j1) cuts with
  | Some chunks => In q (concat chunks) <-> (InSymm px q /\ i0 <= row q < i1 /\ j0 <= col q < j1)
  | None => False
  end.
Proof.
  intros px i0 i1 j0 j1 cuts q HU Hi Hj Ha.
  destruct (fill_chunks_in px i0 i1 j0 j1 cuts HU Hi Hj Ha) as (chunks & -> & H). apply H.
Qed.
Print Assumptions C16_dump_eq_query_fill_in.

(** the text for given chunks: annotator and projection are record-wise, so the text depends on the chunk list only
    through its concatenation and through whether there is a chunk at all (header: finding D18) *)
Theorem C16_dump_of_chunks : forall c o cuts chunks,
  engine_chunks c o cuts = Some chunks ->
  dump_pixels c o cuts =
    if o_balanced o && no_weights c then None
    else match chunks with
         | [] => Some []
         | _ :: _ =>
             match annot_chunk c o (concat chunks) with
             | None => None
             | Some rows =>
                 match o_header o, header_of c o with
                 | true, Some h => Some (Header h :: body_of rows)
                 | _, _ => Some (body_of rows)
                 end
             end
         end.
Proof. exact dump_of_chunks. Qed.
Print Assumptions C16_dump_of_chunks.

(** option lemmas, each for EVERY setting of the other options.
    --one-based-ids: exactly the cells of the columns named bin1_id / bin2_id (where present) are increased by one;
    same columns, same order, nothing else changes *)
Theorem C16_one_based_ids_effect : forall c o p,
  annot_row c (with_ids1 o true) p
  = option_map (bump ["bin1_id"; "bin2_id"]%string) (annot_row c (with_ids1 o false) p).
Proof.
  intros c o p. unfold annot_row, with_ids1. cbn [o_ids1 o_starts1 o_columns o_annot o_join o_balanced].
  match goal with |- context [oapp (oapp ?a ?b) ?e] => destruct (oapp (oapp a b) e) as [r|] end; [|reflexivity].
  destruct (o_starts1 o), (o_columns o) as [cols|]; cbn [option_map];
    rewrite ?(bump_comm ["start1"; "start2"]%string), ?project_bump; reflexivity.
Qed.
Print Assumptions C16_one_based_ids_effect.

(** --one-based-starts: exactly the columns named start1 / start2 *)
Theorem C16_one_based_starts_effect : forall c o p,
  annot_row c (with_starts1 o true) p
  = option_map (bump ["start1"; "start2"]%string) (annot_row c (with_starts1 o false) p).
Proof.
  intros c o p. unfold annot_row, with_starts1. cbn [o_ids1 o_starts1 o_columns o_annot o_join o_balanced].
  match goal with |- context [oapp (oapp ?a ?b) ?e] => destruct (oapp (oapp a b) e) as [r|] end; [|reflexivity].
  destruct (o_ids1 o), (o_columns o) as [cols|]; cbn [option_map]; rewrite ?project_bump; reflexivity.
Qed.
Print Assumptions C16_one_based_starts_effect.

(** what [bump] does: the named columns' integer cells + 1, every other cell and the column names/order unchanged *)
Theorem C16_bump_spec : forall names r n,
  assoc n (bump names r) = option_map (fun v => if mem_str n names then inc_cell v else v) (assoc n r)
  /\ map fst (bump names r) = map fst r.
Proof. intros names r n. split; [apply assoc_bump|apply bump_names]. Qed.
Print Assumptions C16_bump_spec.

(** -c / --columns projects: the named columns of the unrestricted row, in the requested order *)
Theorem C16_columns_effect : forall c o cols p,
  annot_row c (with_columns o (Some cols)) p
  = match annot_row c (with_columns o None) p with Some r => project cols r | None => None end.
Proof.
  intros c o cols p. unfold annot_row, with_columns. cbn [o_ids1 o_starts1 o_columns o_annot o_join o_balanced].
  match goal with |- context [oapp (oapp ?a ?b) ?e] => destruct (oapp (oapp a b) e) as [r|] end; reflexivity.
Qed.
Print Assumptions C16_columns_effect.

Theorem C16_project_spec : forall cols r r',
  project cols r = Some r' -> map fst r' = cols /\ forall n, In n cols -> assoc n r' = assoc n r.
Proof. exact project_spec. Qed.
Print Assumptions C16_project_spec.

(** --join replaces the two ids by chrom/start/end of the pixel's OWN two bins (row bin first), for every setting of
    balanced / one-based-ids / one-based-starts *)
Theorem C16_join_effect : forall c o p,
  o_join o = true -> o_annot o = None -> o_columns o = None ->
  annot_row c o p =
    Some (let d := if o_starts1 o then 1 else 0 in
          let b1 := bin_at c (row p) in let b2 := bin_at c (col p) in
          [("chrom1", CS (chrom_name c b1)); ("start1", CZ (bstart b1 + d)); ("end1", CZ (bend b1));
           ("chrom2", CS (chrom_name c b2)); ("start2", CZ (bstart b2 + d)); ("end2", CZ (bend b2));
           ("count", CZ (val p))]%string
          ++ (if o_balanced o then [("balanced"%string, CQ (balanced_value c p))] else [])).
Proof.
  intros c o p. destruct o as [rg fl bal jn an ids1 starts1 cl hd].
  cbn [o_join o_annot o_columns o_starts1 o_ids1 o_balanced]. intros -> -> ->.
  (* the +0 of the right-hand side is removed while annot_row is still folded: rewriting in the unfolded row is dear *)
  destruct bal, ids1, starts1; cbv zeta; rewrite ?Z.add_0_r; reflexivity.
Qed.
Print Assumptions C16_join_effect.

(** without --join the row carries the two ids (plus one with --one-based-ids), the count and, with -b, the balanced value *)
Theorem C16_plain_effect : forall c o p,
  o_join o = false -> o_annot o = None -> o_columns o = None ->
  annot_row c o p =
    Some (let d := if o_ids1 o then 1 else 0 in
          [("bin1_id", CZ (row p + d)); ("bin2_id", CZ (col p + d)); ("count", CZ (val p))]%string
          ++ (if o_balanced o then [("balanced"%string, CQ (balanced_value c p))] else [])).
Proof.
  intros c o p. destruct o as [rg fl bal jn an ids1 starts1 cl hd].
  cbn [o_join o_annot o_columns o_starts1 o_ids1 o_balanced]. intros -> -> ->.
  (* the +0 of the right-hand side is removed while annot_row is still folded: rewriting in the unfolded row is dear *)
  destruct bal, ids1, starts1; cbv zeta; rewrite ?Z.add_0_r; reflexivity.
Qed.
Print Assumptions C16_plain_effect.

(** load_dump_roundtrip, COO: re-importing the (zero- or one-based) COO text of the stored table with the matching
    --one-based setting, any chunk size and any triangle action that is harmless for the table gives the table back *)
Theorem C16_load_dump_roundtrip_coo : forall ob t chunk px,
  SSorted px -> tril_harmless t px ->
  load_schema false [] = Some coo_schema /\
  load_coo coo_schema "count" ob t chunk (coo_text ob px) = Some px.
Proof.
  intros ob t chunk px Hs Ht. split; [reflexivity|]. unfold load_coo. rewrite mapM_coo_text. now apply load_pixels_roundtrip.
Qed.
Print Assumptions C16_load_dump_roundtrip_coo.

(** dump_eq_query (fill-lower engine), full strength: for every upper-triangular duplicate-free row-sorted stored table
    (every symmetric-upper cooler), every window and EVERY admissible chunking, the concatenated chunks are a
    rearrangement of the symmetric completion inside the window, each record exactly once *)
Theorem C16_dump_eq_query_fill_perm : forall px i0 i1 j0 j1 cuts,
  Upper px -> NoDup px -> RowSorted px -> i0 <= i1 -> j0 <= j1 -> PlanAdmissible px (i0, i1, j0, j1) cuts ->
  match fill_chunks px (i0, i1, j0, j1) cuts with
  | Some chunks => Permutation (concat chunks) (fill_spec px (i0, i1, j0, j1)) /\ NoDup (concat chunks)
  | None => False
  end.
Proof.
  intros px i0 i1 j0 j1 cuts HU Hn _ Hi Hj Ha.
  destruct (fill_chunks_perm px i0 i1 j0 j1 cuts HU Hn Hi Hj Ha) as (chunks & -> & H). exact H.
Qed.
Print Assumptions C16_dump_eq_query_fill_perm.

Theorem C16_fill_spec_is_symm_completion : forall px i0 i1 j0 j1 q,
  In q (fill_spec px (i0, i1, j0, j1)) <-> InSymm px q /\ i0 <= row q < i1 /\ j0 <= col q < j1.
Proof. exact in_fill_spec. Qed.
Print Assumptions C16_fill_spec_is_symm_completion.

(** the chunking the correspondence run evaluates the model with (CSRReader.get_spans for chunksize >= nnz: one span from
    the first row of the box to the first row at which the offsets stop growing) satisfies the hypothesis of the theorems,
    and yields a chunk exactly when a stored pixel lies in the row range of a non-degenerate box (cf. finding D18) *)
Theorem C16_edges1_admissible : forall px i0 i1 j0 j1,
  i0 <= i1 -> AdmissibleCuts px (i0, i1, j0, j1) (edges1 px (i0, i1, j0, j1)).
Proof. exact edges1_admissible. Qed.
Print Assumptions C16_edges1_admissible.

Theorem C16_edges1_has_span : forall px i0 i1 j0 j1,
  i0 <= i1 ->
  (spans_of (edges1 px (i0, i1, j0, j1)) <> [] <->
   degenerate (i0, i1, j0, j1) = false /\ exists p, In p px /\ i0 <= row p < i1).
Proof. exact edges1_has_span. Qed.
Print Assumptions C16_edges1_has_span.

Theorem C16_dump1_eq_query_direct : forall c o,
  o_fill o && d_symm c = false -> RowSorted (d_px c) ->
  (let '(i0, i1, _, _) := bbox_of c o in i0 <= i1) ->
  dump1 c o =
    if o_balanced o && no_weights c then None
    else match spans_of (edges1 (d_px c) (bbox_of c o)) with
         | [] => Some []
         | _ :: _ =>
             match annot_chunk c o (window_select (d_px c) (bbox_of c o)) with
             | None => None
             | Some rows =>
                 match o_header o, header_of c o with
                 | true, Some h => Some (Header h :: body_of rows)
                 | _, _ => Some (body_of rows)
                 end
             end
         end.
Proof.
  intros c o Hd Hs Hb. unfold dump1. apply dump_eq_query_direct; try assumption.
  destruct (bbox_of c o) as [[[i0 i1] j0] j1]. now apply edges1_admissible.
Qed.
Print Assumptions C16_dump1_eq_query_direct.

(** load_dump_roundtrip, BG2: `dump --join [--one-based-starts]` re-imported with `load -f bg2 [--one-based]` over the
    same bin table (any table passing the executable check [bins_ok_b]: distinct names, non-empty bins listed by
    (chromosome, start) without overlap inside a chromosome — every valid tiling), any chunk size *)
Theorem C16_load_dump_roundtrip_bg2 : forall bins names ob t chunk px,
  bins_ok_b bins names = true -> InRange bins px -> SSorted px -> tril_harmless t px ->
  load_schema true [] = Some bg2_schema /\
  load_bg2 bins names bg2_schema "count" ob t chunk (bg2_text bins names ob px) = Some px.
Proof.
  intros bins names ob t chunk px Hb Hr Hs Ht. split; [reflexivity|]. apply bins_ok_b_sound in Hb.
  unfold load_bg2. rewrite (mapM_bg2_text bins names ob px Hb Hr). now apply load_anchor_recs_roundtrip with (names := names).
Qed.
Print Assumptions C16_load_dump_roundtrip_bg2.

(** the canonical aggregate of distinct sorted records is itself; a chunk holding a pixel twice is refused *)
Theorem C16_load_pixels_roundtrip : forall ob t chunk px,
  SSorted px -> tril_harmless t px -> load_pixels ob t chunk (map (shift_ids ob) px) = Some px.
Proof. exact load_pixels_roundtrip. Qed.
Print Assumptions C16_load_pixels_roundtrip.

(** `cooler cload pairs -c1 a -p1 b -c2 c -p2 d` for ANY pairwise distinct one-based field numbers (every permutation,
    with gaps): the schema is accepted, `count` is the output column, every positional field gets its own column's text *)
Theorem C16_cload_positional_any_layout : forall c1 p1 c2 p2 rec,
  1 <= c1 <= Z.of_nat (length rec) -> 1 <= p1 <= Z.of_nat (length rec) ->
  1 <= c2 <= Z.of_nat (length rec) -> 1 <= p2 <= Z.of_nat (length rec) ->
  NoDup [c1; p1; c2; p2] ->
  exists s r, cload_schema c1 p1 c2 p2 [] = Some s /\ s_out s = ["count"%string] /\
    read_fields (s_in s) (s_num s) rec = Some r /\
    assoc "chrom1" r = Some (nth (Z.to_nat (c1 - 1)) rec EmptyString) /\
    assoc "pos1" r = Some (nth (Z.to_nat (p1 - 1)) rec EmptyString) /\
    assoc "chrom2" r = Some (nth (Z.to_nat (c2 - 1)) rec EmptyString) /\
    assoc "pos2" r = Some (nth (Z.to_nat (p2 - 1)) rec EmptyString).
Proof. exact cload_positional_any_layout. Qed.
Print Assumptions C16_cload_positional_any_layout.

(** parse_field_param on the documented form NAME=NUMBER (name free of ':' and '='): zero-based column = NUMBER - 1 for
    every NUMBER >= 1; NUMBER = 0 is refused ("Field numbers start at 1") *)
Theorem C16_parse_field_param_name_number : forall name k agg,
  has_char ":" name = false -> has_char "=" name = false -> 1 <= k ->
  parse_field_param (append name (String "=" (print_Z k))) true agg = FP name (Some (k - 1)) None None.
Proof.
  intros name k agg Hc He Hk. unfold parse_field_param.
  destruct (split_name_value name (print_Z k) Hc He) as [-> ->]; try (apply print_pos_no_sep; tauto).
  rewrite parse_print_Z. now replace (k - 1 <? 0) with false by lia.
Qed.
Print Assumptions C16_parse_field_param_name_number.

Theorem C16_parse_field_param_zero_refused : forall name agg,
  has_char ":" name = false -> has_char "=" name = false ->
  parse_field_param (append name (String "=" (print_Z 0))) true agg = FPBad.
Proof.
  intros name agg Hc He. unfold parse_field_param. now destruct (split_name_value name (print_Z 0) Hc He) as [-> ->].
Qed.
Print Assumptions C16_parse_field_param_zero_refused.

(** the edge list of CSRReader.get_spans as modelled in Model/Query.v (arg_prune_partition, every chunk size k >= 1) is
    an admissible chunking for the dump's engine model; [OffsetsFor px n off]: off[i] = #records with bin1 < i, i = 0..n *)
Theorem C16_get_spans_admissible : forall px n off k i0 i1 j0 j1,
  OffsetsFor px n off -> 1 <= k -> 0 <= i0 -> i0 <= i1 -> i1 <= n ->
  Query.get_spans off k (i0, i1, j0, j1) = spans_of (get_edges off k (i0, i1, j0, j1)) /\
  AdmissibleCuts px (i0, i1, j0, j1) (get_edges off k (i0, i1, j0, j1)).
Proof. intros. split; [apply get_spans_edges|now apply (get_edges_admissible px n)]. Qed.
Print Assumptions C16_get_spans_admissible.

(** dump_eq_query (direct engine) for EVERY -k >= 1, no admissibility hypothesis *)
Theorem C16_dump_direct_every_chunksize : forall c o n off k,
  o_fill o && d_symm c = false ->
  RowSorted (d_px c) -> OffsetsFor (d_px c) n off -> BoxIn n (bbox_of c o) -> 1 <= k ->
  dump_pixels c o (get_edges off k) =
    if o_balanced o && no_weights c then None
    else match Query.get_spans off k (bbox_of c o) with
         | [] => Some []
         | _ :: _ =>
             match annot_chunk c o (window_select (d_px c) (bbox_of c o)) with
             | None => None
             | Some rows =>
                 match o_header o, header_of c o with
                 | true, Some h => Some (Header h :: body_of rows)
                 | _, _ => Some (body_of rows)
                 end
             end
         end.
Proof. exact dump_direct_every_chunksize. Qed.
Print Assumptions C16_dump_direct_every_chunksize.

(** dump_eq_query (fill-lower engine) for EVERY -k >= 1 *)
Theorem C16_fill_every_chunksize : forall px n off k i0 i1 j0 j1,
  Upper px -> NoDup px -> RowSorted px -> OffsetsFor px n off -> BoxIn n (i0, i1, j0, j1) -> 1 <= k ->
  exists chunks, fill_chunks px (i0, i1, j0, j1) (get_edges off k) = Some chunks /\
    Permutation (concat chunks) (fill_spec px (i0, i1, j0, j1)) /\ NoDup (concat chunks).
Proof. exact fill_every_chunksize. Qed.
Print Assumptions C16_fill_every_chunksize.

(** the dump's engine model and the engines of Model/Query.v (C03) agree on every stored table and chunk size:
    direct = same list; fill-lower = rearrangements of one another *)
Theorem C16_direct_engine_agrees_with_C03 : forall px n off k i0 i1 j0 j1,
  QueryProofs.ValidCSR n (Query.epx_of px) off -> RowSorted px -> OffsetsFor px n off ->
  1 <= k -> 0 <= i0 -> i0 <= i1 -> i1 <= n ->
  concat (direct_chunks px (i0, i1, j0, j1) (get_edges off k))
  = map snd (Query.direct_query (Query.epx_of px) off (Query.get_spans off k) (i0, i1, j0, j1)).
Proof. exact direct_engine_agrees. Qed.
Print Assumptions C16_direct_engine_agrees_with_C03.

Theorem C16_fill_engine_agrees_with_C03 : forall px n off k i0 i1 j0 j1,
  QueryProofs.ValidCSR n (Query.epx_of px) off -> Upper px -> NoDup px -> RowSorted px -> OffsetsFor px n off ->
  BoxIn n (i0, i1, j0, j1) -> 1 <= k ->
  exists chunks out,
    fill_chunks px (i0, i1, j0, j1) (get_edges off k) = Some chunks /\
    Query.fill_lower_query (Query.epx_of px) off (Query.get_spans off k) (i0, i1, j0, j1) = Some out /\
    Permutation (concat chunks) (map snd out).
Proof. exact fill_engine_agrees. Qed.
Print Assumptions C16_fill_engine_agrees_with_C03.

(** the real get_spans yields a span iff a stored record lies in the row range of a non-degenerate box, for every -k
    (the exact condition of finding D18: no chunk -> no header) *)
Theorem C16_get_spans_nonempty_iff_pixel : forall px n off k i0 i1 j0 j1,
  OffsetsFor px n off -> 1 <= k -> 0 <= i0 -> i0 <= i1 -> i1 <= n ->
  (Query.get_spans off k (i0, i1, j0, j1) <> [] <->
   degenerate (i0, i1, j0, j1) = false /\ exists p, In p px /\ i0 <= row p < i1).
Proof.
  intros px n off k i0 i1 j0 j1 Ho Hk H0 H01 H1.
  rewrite (get_spans_nil_iff px n off k i0 i1 j0 j1 Ho Hk H0 H01 H1), <- (offset_lt_iff px i0 i1 H01).
  pose proof (offset_mono px i0 i1 H01). destruct (degenerate (i0, i1, j0, j1)); lia.
Qed.
Print Assumptions C16_get_spans_nonempty_iff_pixel.

(** C16 over C02: every collection satisfying the published schema (IndexProofs.ValidCSR), every option setting, every
    window inside the bin table, EVERY -k >= 1: dump rows = annotated stored records in the window in storage order,
    resp. (with -f on a symmetric-upper collection) the annotated rearrangement of the symmetric completion in the window *)
Theorem C16_stored_collection_dump : forall (c : Index.cooler) (dc : dcooler) o k,
  IndexProofs.ValidCSR c -> Describes dc c -> BoxIn (Index.nbins c) (bbox_of dc o) -> 1 <= k ->
  let cuts := get_edges (Index.bin1_offset c) k in
  (o_fill o && d_symm dc = false ->
     dump_pixels dc o cuts =
       if o_balanced o && no_weights dc then None
       else match Query.get_spans (Index.bin1_offset c) k (bbox_of dc o) with
            | [] => Some []
            | _ :: _ =>
                match annot_chunk dc o (window_select (Index.pixels_of c) (bbox_of dc o)) with
                | None => None
                | Some rows =>
                    match o_header o, header_of dc o with
                    | true, Some h => Some (Header h :: body_of rows)
                    | _, _ => Some (body_of rows)
                    end
                end
            end) /\
  (o_fill o && d_symm dc = true ->
     exists chunks,
       engine_chunks dc o cuts = Some chunks /\
       Permutation (concat chunks) (fill_spec (Index.pixels_of c) (bbox_of dc o)) /\ NoDup (concat chunks) /\
       dump_pixels dc o cuts =
         if o_balanced o && no_weights dc then None
         else match chunks with
              | [] => Some []
              | _ :: _ =>
                  match annot_chunk dc o (concat chunks) with
                  | None => None
                  | Some rows =>
                      match o_header o, header_of dc o with
                      | true, Some h => Some (Header h :: body_of rows)
                      | _, _ => Some (body_of rows)
                      end
                  end
              end).
Proof. exact stored_collection_dump. Qed.
Print Assumptions C16_stored_collection_dump.

Theorem C16_stored_collection_dump_chunksize_independent : forall (c : Index.cooler) (dc : dcooler) o k1 k2,
  IndexProofs.ValidCSR c -> Describes dc c -> BoxIn (Index.nbins c) (bbox_of dc o) -> 1 <= k1 -> 1 <= k2 ->
  o_fill o && d_symm dc = false ->
  dump_pixels dc o (get_edges (Index.bin1_offset c) k1) = dump_pixels dc o (get_edges (Index.bin1_offset c) k2).
Proof. exact stored_collection_dump_chunksize_independent. Qed.
Print Assumptions C16_stored_collection_dump_chunksize_independent.

(** the same for EVERY admissible cut function in place of the exact-arithmetic linspace (numpy computes the interior
    cuts in floating point): SpansProofs.AdmissibleCuts = contains lo and hi, all cuts <= hi *)
Theorem C16_dump_direct_every_cut_sequence : forall c o n off cutsf,
  (forall seq, StronglySorted Z.le seq -> seq <> [] -> SpansProofs.AdmissibleCuts seq (cutsf seq)) ->
  o_fill o && d_symm c = false ->
  RowSorted (d_px c) -> OffsetsFor (d_px c) n off -> BoxIn n (bbox_of c o) ->
  dump_pixels c o (edges_with cutsf off) =
    if o_balanced o && no_weights c then None
    else match SpansProofs.spans_with cutsf off (bbox_of c o) with
         | [] => Some []
         | _ :: _ =>
             match annot_chunk c o (window_select (d_px c) (bbox_of c o)) with
             | None => None
             | Some rows =>
                 match o_header o, header_of c o with
                 | true, Some h => Some (Header h :: body_of rows)
                 | _, _ => Some (body_of rows)
                 end
             end
         end.
Proof.
  intros c o n off cutsf Hcuts Hd Hs Ho Hb. rewrite spans_with_edges. apply dump_eq_query_direct; try assumption.
  destruct (bbox_of c o) as [[[i0 i1] j0] j1]. cbn in Hb. apply (edges_with_admissible _ n); tauto.
Qed.
Print Assumptions C16_dump_direct_every_cut_sequence.

Theorem C16_fill_every_cut_sequence : forall px n off cutsf i0 i1 j0 j1,
  (forall seq, StronglySorted Z.le seq -> seq <> [] -> SpansProofs.AdmissibleCuts seq (cutsf seq)) ->
  Upper px -> NoDup px -> RowSorted px -> OffsetsFor px n off -> BoxIn n (i0, i1, j0, j1) ->
  exists chunks, fill_chunks px (i0, i1, j0, j1) (edges_with cutsf off) = Some chunks /\
    Permutation (concat chunks) (fill_spec px (i0, i1, j0, j1)) /\ NoDup (concat chunks).
Proof.
  intros px n off cutsf i0 i1 j0 j1 Hcuts HU Hn _ Ho Hb. pose proof Hb as (_ & Hi & _ & _ & Hj & _).
  apply fill_chunks_perm; try assumption. apply (plan_admissible_rows px n); [|assumption]. intros. now apply (edges_with_admissible px n).
Qed.
Print Assumptions C16_fill_every_cut_sequence.

Definition ex_cool : dcooler :=
  {| d_bins := [(0,0,10);(0,10,20);(0,20,25);(1,0,10);(1,10,17)]; d_names := ["a";"b"]%string;
     d_weight := Some [Some (1#2)%Q; None; Some (5#4)%Q; Some (2#1)%Q; Some (3#4)%Q];
     d_px := [((0,0),3);((0,3),1);((1,1),4);((2,2),1);((2,4),5);((4,4),9)]; d_symm := true |}.
Definition ex_opts (fill : bool) (r : option (range * option range)) : dopts :=
  {| o_range := r; o_fill := fill; o_balanced := true; o_join := true; o_annot := None; o_ids1 := true;
     o_starts1 := true; o_columns := Some ["chrom1"; "start2"; "balanced"]%string; o_header := true |}.

(** the hypotheses of the theorems hold of a concrete non-trivial cooler, and the dump is non-trivial *)
Example ex_C16_hypotheses :
  ssorted_b (d_px ex_cool) = true /\ upper_b (d_px ex_cool) = true /\
  bins_ok_b (d_bins ex_cool) (d_names ex_cool) = true /\
  inrange_b 5 (d_px ex_cool) = true.
Proof. vm_compute. repeat split; reflexivity. Qed.

Example ex_C16_dump_direct :
  dump1 ex_cool (ex_opts false (Some ((0, 3), Some (2, 5)))) =
  Some [Header ["chrom1"; "start2"; "balanced"]%string;
        Data [CS "a"; CZ 1; CQ (Some ((1#2) * (2#1) * inject_Z 1)%Q)];
        Data [CS "a"; CZ 21; CQ (Some ((5#4) * (5#4) * inject_Z 1)%Q)];
        Data [CS "a"; CZ 11; CQ (Some ((5#4) * (3#4) * inject_Z 5)%Q)]].
Proof. vm_compute. reflexivity. Qed.

(** finding D18 in the model: header requested, the row range holds no pixel -> nothing at all is printed *)
Example ex_C16_header_missing_D18 :
  dump1 ex_cool (ex_opts false (Some ((3, 4), None))) = Some [].
Proof. vm_compute. reflexivity. Qed.

(** the fill-lower engine on a window below the diagonal: the mirrored records *)
Example ex_C16_fill_lower :
  option_map (@concat pixel) (fill_chunks (d_px ex_cool) (3, 5, 0, 3) (edges1 (d_px ex_cool)))
  = Some [((3,0),1); ((4,2),5)].
Proof. vm_compute. reflexivity. Qed.

Example ex_C16_roundtrips :
  load_coo coo_schema "count" true Reflect 2%nat (coo_text true (d_px ex_cool)) = Some (d_px ex_cool) /\
  load_bg2 (d_bins ex_cool) (d_names ex_cool) bg2_schema "count" true Reflect 4%nat
           (bg2_text (d_bins ex_cool) (d_names ex_cool) true (d_px ex_cool)) = Some (d_px ex_cool).
Proof. vm_compute. split; reflexivity. Qed.

(** D8 regression: `cload pairs -c1 4 -p1 3 -c2 2 -p2 1` and `load --field foo=5 --field count=3` *)
Example ex_C16_D8 :
  (match cload_schema 4 3 2 1 [] with
   | Some s => read_fields (s_in s) (s_num s) ["7"; "b"; "3"; "a"]%string
   | None => None end)
  = Some [("pos2", "7"); ("chrom2", "b"); ("pos1", "3"); ("chrom1", "a")]%string /\
  (match load_schema false [parse_field_param "foo=5" true false; parse_field_param "count=3" true false] with
   | Some s => coo_record s "count" ["0"; "1"; "42"; "x"; "9"]%string
   | None => None end) = Some ((0, 1), 42).
Proof. vm_compute. split; reflexivity. Qed.

(** the integration hypotheses hold of the concrete cooler, and the real get_spans with -k 1 gives the same dump as the
    single-span chunking the correspondence run evaluates *)
Example ex_C16_every_chunksize :
  let off := Query.offsets_of 5 (d_px ex_cool) in
  Query.valid_csr_b 5 (Query.epx_of (d_px ex_cool)) off = true /\
  Query.get_spans off 1 (0, 3, 2, 5) = [(0, 1); (1, 2); (2, 3)] /\
  dump_pixels ex_cool (ex_opts false (Some ((0, 3), Some (2, 5)))) (get_edges off 1)
  = dump1 ex_cool (ex_opts false (Some ((0, 3), Some (2, 5)))).
Proof. vm_compute. repeat split; reflexivity. Qed.

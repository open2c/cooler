(** C04  Genomic ranges map to exactly the bins that cover them.
    Statements.  A proof here is [exact] of the lemma with the same statement, a few lines from the general lemmas, or an evaluation for a concrete witness;
    the lemmas are in Proofs/ExtentProofs.v, Proofs/FetchProofs.v (integration with C02 and C03), Proofs/FloatDiv.v with
    FloatDivBridge.v (binary64 quotients) and Proofs/GenBridgeRegion.v (source tie).
    A bin table is given by its chromosome blocks; [ValidBlocks] (C20) says block i is a non-empty
    tiling of chromosome i from 0.  [region_to_extent] takes the fixed-width (arithmetic) path when
    get_binsize reports a size and the searchsorted path otherwise. *)
From Cooler Require Import Model.Extent Model.Fetch Proofs.BinsProofs Proofs.ExtentProofs Proofs.FetchProofs.
From Cooler Require Model.Index Proofs.IndexProofs.

(** non-empty range: bin k is selected IFF it is a bin of the chromosome that overlaps [s,e);
    the run is non-empty and lies inside the chromosome's span (never another chromosome).
    Minimality and contiguity follow from the "iff" on a half-open interval of positions. *)
Theorem C04_extent_overlap : forall blocks i blk s e,
  ValidBlocks blocks -> nth_error blocks i = Some blk ->
  0 <= s < e -> e <= chrom_len blk ->
  let '(lo, hi) := region_to_extent blocks i s e in
  (forall k : nat, lo <= Z.of_nat k < hi <->
     exists x, nth_error (table blocks) k = Some x /\ bchrom x = Z.of_nat i /\ bstart x < e /\ s < bend x)
  /\ chrom_offset blocks i <= lo < hi /\ hi <= chrom_offset blocks (S i).
Proof. exact extent_overlap. Qed.
Print Assumptions C04_extent_overlap.

(** empty range: at most one bin, of the same chromosome, containing the position (closed at its end) *)
Theorem C04_extent_empty : forall blocks i blk s,
  ValidBlocks blocks -> nth_error blocks i = Some blk ->
  0 <= s <= chrom_len blk ->
  let '(lo, hi) := region_to_extent blocks i s s in
  lo <= hi <= lo + 1 /\ chrom_offset blocks i <= lo /\ hi <= chrom_offset blocks (S i) /\
  (forall k : nat, lo <= Z.of_nat k < hi ->
     exists x, nth_error (table blocks) k = Some x /\ bchrom x = Z.of_nat i /\ bstart x < s <= bend x).
Proof. exact extent_empty. Qed.
Print Assumptions C04_extent_empty.

(** fixed-width and variable-width tables are treated identically: whenever a size b is reported,
    arithmetic with b and binary search on the bin starts give the same extent *)
Theorem C04_extent_paths_agree : forall blocks i blk b,
  ValidBlocks blocks -> nth_error blocks i = Some blk -> get_binsize (table blocks) = Some b ->
  forall s e, 0 <= s <= e -> e <= chrom_len blk -> s < chrom_len blk ->
  region_to_extent_fixed blocks i s e b = region_to_extent_var blocks i s e.
Proof. exact extent_paths_agree. Qed.
Print Assumptions C04_extent_paths_agree.

(** ... which is false for arithmetic with an untruthful size (input of the repaired defect D1) *)
Theorem C04_extent_fixed_refuted :
  let blocks := [[(0,0,10);(0,10,20);(0,20,35)]; [(1,0,10);(1,10,20)]] in
  valid_blocks_b blocks = true /\
  region_to_extent_fixed blocks 0 25 35 10 = (2, 4) /\
  region_to_extent_var blocks 0 25 35 = (2, 3) /\
  get_binsize (table blocks) = None.
Proof. exact extent_fixed_refuted. Qed.
Print Assumptions C04_extent_fixed_refuted.

(** util.parse_region: a region is accepted exactly when 0 <= start <= end <= length (open ends
    default to 0 and to the chromosome length), and is then handed on unchanged *)
Theorem C04_parse_region_bounds : forall sizes c s e,
  parse_region sizes c s e =
  match nth_error sizes c with
  | None => None
  | Some L => if (0 <=? dflt 0 s) && (dflt 0 s <=? dflt L e) && (dflt L e <=? L)
              then Some (c, dflt 0 s, dflt L e) else None
  end.
Proof. exact parse_region_spec. Qed.
Print Assumptions C04_parse_region_bounds.

(** whole chromosome / bare name: exactly the chromosome's rows *)
Theorem C04_extent_whole_chrom : forall blocks i blk,
  ValidBlocks blocks -> nth_error blocks i = Some blk ->
  extent blocks i None None = Some (chrom_offset blocks i, chrom_offset blocks (S i)).
Proof. exact extent_whole_chrom. Qed.
Print Assumptions C04_extent_whole_chrom.

(** Cooler.bins().fetch returns exactly the overlapping bins of the chromosome, in table order *)
Theorem C04_bins_fetch_overlap : forall blocks i blk s e,
  ValidBlocks blocks -> nth_error blocks i = Some blk ->
  0 <= s < e -> e <= chrom_len blk ->
  bins_fetch blocks i (Some s) (Some e) = Some (filter (overlaps_b i s e) (table blocks)).
Proof. exact bins_fetch_overlap. Qed.
Print Assumptions C04_bins_fetch_overlap.

(** Cooler.pixels().fetch: the row range between the two bin1 offsets of an extent holds exactly
    the pixels whose bin1_id lies in the extent *)
Theorem C04_pixels_fetch_rows : forall px lo hi,
  Sorted.StronglySorted Z.le (map fst px) -> lo <= hi ->
  pixels_fetch_rows px lo hi = filter (fun p => (lo <=? fst p) && (fst p <? hi)) px.
Proof. intros px lo hi. exact (slice_sorted_range fst px lo hi). Qed.
Print Assumptions C04_pixels_fetch_rows.

(** util.bedslice / GenomeSegmentation.fetch: exactly the overlapping bins (for an empty range the
    bin strictly containing the position, if any) *)
Theorem C04_bedslice_overlap : forall c blk s e,
  Tiled c 0 blk -> 0 <= s <= e -> e <= chrom_len blk ->
  bedslice blk (chrom_len blk) s e = filter (fun x => (bstart x <? e) && (s <? bend x)) blk.
Proof. exact bedslice_overlap. Qed.
Print Assumptions C04_bedslice_overlap.

Theorem C04_bedslice_eq_extent : forall blocks i blk s e,
  ValidBlocks blocks -> nth_error blocks i = Some blk ->
  0 <= s < e -> e <= chrom_len blk ->
  Some (bedslice blk (chrom_len blk) s e) = bins_fetch blocks i (Some s) (Some e).
Proof. exact bedslice_eq_extent. Qed.
Print Assumptions C04_bedslice_eq_extent.

(** the one corner where the two paths differ (both answers satisfy C04_extent_empty) *)
Theorem C04_extent_paths_differ_at_end :
  let blocks := [[(0,0,10);(0,10,20)]; [(1,0,10)]] in
  get_binsize (table blocks) = Some 10 /\
  region_to_extent_fixed blocks 0 20 20 10 = (2, 2) /\ region_to_extent_var blocks 0 20 20 = (1, 2).
Proof. vm_compute. repeat split; reflexivity. Qed.
Print Assumptions C04_extent_paths_differ_at_end.

(** the model's chrom_offset is the contract of indexes/chrom_offset read on the flat table:
    the number of rows of the chromosomes before c *)
Theorem C04_chrom_offset_counts : forall blocks c,
  ValidBlocks blocks ->
  chrom_offset blocks c = zlen (filter (fun x => bchrom x <? Z.of_nat c) (table blocks)).
Proof. exact chrom_offset_counts. Qed.
Print Assumptions C04_chrom_offset_counts.

(** a valid non-empty region resolves; its extent is exactly the ascending list of ids of the bins of that
    chromosome overlapping it *)
Theorem C04_extent_is_overlap_ids : forall blocks i blk s e,
  ValidBlocks blocks -> nth_error blocks i = Some blk -> 0 <= s < e -> e <= chrom_len blk ->
  exists lo hi, extent blocks i (Some s) (Some e) = Some (lo, hi) /\
    0 <= lo /\ lo < hi /\ hi <= zlen (table blocks) /\
    (forall k, lo <= k < hi <-> bin_overlaps blocks i s e k = true) /\
    zrange lo (Z.to_nat (hi - lo)) = overlap_ids blocks i s e.
Proof. exact extent_is_overlap_ids. Qed.
Print Assumptions C04_extent_is_overlap_ids.

(** a two-region fetch IS the index-slice query of the engine (C03) on the two extents *)
Theorem C04_fetch2_eq_slice : forall blocks epx off cs fill form r1 r2 i0 i1 j0 j1,
  extent blocks (fst (fst r1)) (snd (fst r1)) (snd r1) = Some (i0, i1) ->
  extent blocks (fst (fst r2)) (snd (fst r2)) (snd r2) = Some (j0, j1) ->
  matrix_fetch_records blocks epx off cs fill form r1 r2 = matrix_records epx off cs fill form (i0, i1, j0, j1).
Proof. exact fetch2_eq_slice. Qed.
Print Assumptions C04_fetch2_eq_slice.

(** on every schema-valid (C02) symmetric-upper collection, for every chunk size, the dense two-region fetch is the
    symmetric matrix over exactly (bins overlapping region 1) x (bins overlapping region 2) *)
Theorem C04_matrix_fetch_symm : forall (c : Index.cooler) blocks,
  IndexProofs.ValidCSR c -> ValidBlocks blocks -> zlen (table blocks) = Index.nbins c ->
  forall cs i1 blk1 s1 e1 i2 blk2 s2 e2,
  Index.symmetric_upper c = true -> 1 <= cs ->
  nth_error blocks i1 = Some blk1 -> 0 <= s1 < e1 -> e1 <= chrom_len blk1 ->
  nth_error blocks i2 = Some blk2 -> 0 <= s2 < e2 -> e2 <= chrom_len blk2 ->
  matrix_fetch_dense blocks (epx_of (Index.pixels_of c)) (Index.bin1_offset c) cs true
                     (i1, Some s1, Some e1) (i2, Some s2, Some e2) =
  Some (map (fun i => map (fun j => symm (Index.pixels_of c) i j) (overlap_ids blocks i2 s2 e2))
            (overlap_ids blocks i1 s1 e1)).
Proof. exact matrix_fetch_symm. Qed.
Print Assumptions C04_matrix_fetch_symm.

(** ... and the pixel-frame form returns exactly the stored records with bin1 overlapping region 1 and bin2
    overlapping region 2 *)
Theorem C04_matrix_fetch_pixels : forall (c : Index.cooler) blocks,
  IndexProofs.ValidCSR c -> ValidBlocks blocks -> zlen (table blocks) = Index.nbins c ->
  forall cs i1 blk1 s1 e1 i2 blk2 s2 e2,
  1 <= cs ->
  nth_error blocks i1 = Some blk1 -> 0 <= s1 < e1 -> e1 <= chrom_len blk1 ->
  nth_error blocks i2 = Some blk2 -> 0 <= s2 < e2 -> e2 <= chrom_len blk2 ->
  matrix_fetch_records blocks (epx_of (Index.pixels_of c)) (Index.bin1_offset c) cs true AsPixels
                       (i1, Some s1, Some e1) (i2, Some s2, Some e2) =
  Some (filter (fun r => bin_overlaps blocks i1 s1 e1 (row (snd r)) && bin_overlaps blocks i2 s2 e2 (col (snd r)))
               (epx_of (Index.pixels_of c))).
Proof. exact matrix_fetch_pixels. Qed.
Print Assumptions C04_matrix_fetch_pixels.

(** pixels().fetch(region) on a schema-valid collection (stored bin1_offset index): exactly the stored records
    whose bin1 overlaps the region *)
Theorem C04_pixels_fetch_stored : forall (c : Index.cooler) blocks i blk s e,
  IndexProofs.ValidCSR c -> ValidBlocks blocks -> zlen (table blocks) = Index.nbins c ->
  nth_error blocks i = Some blk -> 0 <= s < e -> e <= chrom_len blk ->
  pixels_fetch_stored blocks (Index.pixels_of c) (Index.bin1_offset c) (i, Some s, Some e) =
  Some (filter (fun p => bin_overlaps blocks i s e (row p)) (Index.pixels_of c)).
Proof. exact pixels_fetch_stored_spec. Qed.
Print Assumptions C04_pixels_fetch_stored.

(** non-vacuity *)
Example ex_C04_variable :
  let blocks := [[(0,0,3);(0,3,6);(0,6,8)]; [(1,0,4);(1,4,8)]; [(2,0,5)]] in
  valid_blocks_b blocks = true /\ get_binsize (table blocks) = None /\
  region_to_extent blocks 1 2 5 = (3, 5) /\ region_to_extent blocks 0 3 3 = (1, 1) /\
  region_to_extent blocks 0 8 8 = (2, 3).
Proof. vm_compute. repeat split; reflexivity. Qed.
Example ex_C04_fixed :
  let blocks := [[(0,0,10);(0,10,20);(0,20,25)]; [(1,0,7)]] in
  valid_blocks_b blocks = true /\ get_binsize (table blocks) = Some 10 /\
  region_to_extent blocks 0 10 21 = (1, 3) /\ region_to_extent blocks 1 0 7 = (3, 4).
Proof. vm_compute. repeat split; reflexivity. Qed.
Example ex_C04_stored_fetch :
  let blocks := [[(0,0,3);(0,3,6);(0,6,8)]; [(1,0,4);(1,4,8)]] in
  let px : list pixel := [((0,0),1); ((0,2),2); ((1,3),3); ((3,4),4)] in
  match Index.create_model 2 (map bchrom (table blocks)) px true with
  | None => False
  | Some c =>
    Index.valid_csr_b c = true /\ valid_blocks_b blocks = true /\ zlen (table blocks) = Index.nbins c /\
    overlap_ids blocks 0 2 7 = [0; 1; 2] /\ overlap_ids blocks 1 0 5 = [3; 4] /\
    matrix_fetch_dense blocks (epx_of (Index.pixels_of c)) (Index.bin1_offset c) 2 true (0%nat, Some 2, Some 7) (1%nat, Some 0, Some 5)
      = Some [[0; 0]; [3; 0]; [0; 0]] /\
    pixels_fetch_stored blocks (Index.pixels_of c) (Index.bin1_offset c) (0%nat, Some 3, Some 6) = Some [((1,3),3)]
  end.
Proof. vm_compute. repeat split; reflexivity. Qed.

(** the fixed-bin-size branch of _region_to_extent computes [int(np.floor(start / binsize))] and
    [int(np.ceil(end / binsize))] with float64 true division (core/_rangequery.py:20-23).  For coordinates and bin sizes
    below 2^53 the correctly rounded binary64 quotient has the same floor / ceiling as the exact quotient
    (Proofs/FloatDiv.v, Flocq), so the extent the code computes is the model's.  Depends on the standard library's
    real-number axioms only. *)
From Cooler Require Import Proofs.FloatDiv Proofs.FloatDivBridge.
From Flocq Require Import Core.
Theorem C04_binary64_fixed_extent_exact : forall blocks c s e b,
  0 <= s < 2^53 -> 0 <= e < 2^53 -> 0 < b < 2^53 ->
  (chrom_offset blocks c + Zfloor (fdiv s b), chrom_offset blocks c + Zceil (fdiv e b)) = region_to_extent_fixed blocks c s e b.
Proof.
  intros blocks c s e b Hs He Hb. unfold region_to_extent_fixed. now rewrite floor_fdiv_exact, ceil_fdiv_is_cdiv.
Qed.
Print Assumptions C04_binary64_fixed_extent_exact.

(** the float64 quotient expression of _region_to_extent that the binary64 theorem above is about is pinned in the source on every run
    (tools/py2v.py): a reciprocal multiplication or another shortcut is a different computation *)
From Cooler Require Import Gen.Translated.
Theorem C04_float_division_source_pins : Gen.float_division_pins_extent = true.
Proof. reflexivity. Qed.
Print Assumptions C04_float_division_source_pins.

(** the tail of util.parse_region (defaults of an open start / end, "End cannot be less than start", "Genomic region out of
    bounds") as translated from util.py on every run is the model's region check, for every chromosome table and region: the
    theorems above about [extent] are statements about the comparisons the source has now.  The tuple / string dispatch,
    the chromsizes lookup and the defaults are pinned by the translator. *)
From Cooler Require Import Proofs.GenBridgeRegion.
Theorem C04_source_parse_region_is_model : forall sizes c s e,
  Extent.parse_region sizes c s e =
  match nth_error sizes c with
  | None => None
  | Some L => match Gen.parse_region_tail s e (Some L) with None => None | Some (s', e') => Some (c, s', e') end
  end.
Proof. exact gen_parse_region_is_extent_model. Qed.
Print Assumptions C04_source_parse_region_is_model.

Theorem C04_parse_region_source_pins : Gen.parse_region_source_pins = true.
Proof. reflexivity. Qed.
Print Assumptions C04_parse_region_source_pins.

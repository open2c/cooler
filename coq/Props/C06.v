(** C06  Unordered ingestion equals aggregating all records in memory.
    Statements.  A proof here is [exact] of the lemma with the same statement, a few lines from the general lemmas, or an evaluation for a concrete witness;
    the lemmas are in Proofs/MergeProofs.v (the group-by theory in Proofs/GroupBy.v).  The model of create_from_unordered is
    Model/Merge.v:unordered_g (one temporary cooler per chunk, optional first merge pass over an edge
    list, final merger; every written chunk goes through validate_pixels and the dtype check). *)
From Cooler Require Import Model.Merge Proofs.PixelsProofs Proofs.MergeProofs.
From Coq Require Import Sorted Permutation.

(** any value type / aggregation function that is insensitive to record order and compatible with a
    two-level merge: a successful ingestion stores the group-by aggregate of all records of all chunks,
    with its index, for every chunking, every mergebuf >= 0, one pass or any admissible edge list *)
Theorem C06_unordered_exact : forall (V : Type) (n : nat) (o : copts) (vcheck : V -> bool) (agg : list V -> V),
  (forall l l' : list (key * V), Permutation l l' -> groupby_agg agg l = groupby_agg agg l') ->
  (forall Gs : list (list (key * V)), groupby_agg agg (concat (map (groupby_agg agg) Gs)) = groupby_agg agg (concat Gs)) ->
  forall (chunks : list (list (key * V))) (buf : Z) (edges : option (list nat)) (m : mcool V),
  (1 <= n)%nat -> 0 <= buf ->
  Forall (fun ch => (o_sort o = true \/ RowSorted ch) /\ Forall (fun p => 0 <= rowof p < Z.of_nat n) ch) chunks ->
  match edges with Some e => Admissible (length chunks) e | None => True end ->
  unordered_g n o vcheck agg chunks buf edges = Ok m ->
  m = mk_cool n (groupby_agg agg (concat chunks)).
Proof. intros V. exact (@unordered_exact V). Qed.
Print Assumptions C06_unordered_exact.

(** counts: the stored table IS the in-memory aggregate (strictly sorted, one row per pixel, per-pixel sum)
    of the concatenation of all chunks; its index is the index of that table; the total is preserved *)
Theorem C06_unordered_eq_aggregate : forall (n : nat) (o : copts) (vcheck : Z -> bool)
    (chunks : list (list pixel)) (buf : Z) (edges : option (list nat)) (m : mcool Z),
  (1 <= n)%nat -> 0 <= buf ->
  Forall (fun ch => (o_sort o = true \/ RowSorted ch) /\ Forall (fun p => 0 <= rowof p < Z.of_nat n) ch) chunks ->
  match edges with Some e => Admissible (length chunks) e | None => True end ->
  unordered_g n o vcheck sumZ chunks buf edges = Ok m ->
  mc_px m = aggregate (concat chunks) /\ mc_off m = index_of n (mc_px m) /\
  total (mc_px m) = total (concat chunks).
Proof. exact unordered_eq_aggregate. Qed.
Print Assumptions C06_unordered_eq_aggregate.

(** independence of how the records are split into chunks, of the chunk order, of the merge buffer, of one
    vs two passes (and of the validation options): same multiset of records, same file content *)
Theorem C06_unordered_independent : forall (n : nat) (o o' : copts) (vc vc' : Z -> bool)
    (chunks chunks' : list (list pixel)) (buf buf' : Z) (edges edges' : option (list nat)) (m m' : mcool Z),
  (1 <= n)%nat -> 0 <= buf -> 0 <= buf' ->
  Permutation (concat chunks) (concat chunks') ->
  Forall (fun ch => (o_sort o = true \/ RowSorted ch) /\ Forall (fun p => 0 <= rowof p < Z.of_nat n) ch) chunks ->
  Forall (fun ch => (o_sort o' = true \/ RowSorted ch) /\ Forall (fun p => 0 <= rowof p < Z.of_nat n) ch) chunks' ->
  match edges with Some e => Admissible (length chunks) e | None => True end ->
  match edges' with Some e => Admissible (length chunks') e | None => True end ->
  unordered_g n o vc sumZ chunks buf edges = Ok m ->
  unordered_g n o' vc' sumZ chunks' buf' edges' = Ok m' -> m = m'.
Proof. exact unordered_independent. Qed.
Print Assumptions C06_unordered_independent.

(** the same independence for every permutation-invariant aggregation obeying the composition law
    agg (map agg Gs) = agg (concat Gs) on non-empty groups (instances: max and min) *)
Theorem C06_unordered_independent_any_agg : forall (V : Type) (agg : list V -> V),
  (forall vs vs', Permutation vs vs' -> agg vs = agg vs') ->
  (forall Gs : list (list V), Forall (fun G => G <> []) Gs -> agg (map agg Gs) = agg (concat Gs)) ->
  forall (n : nat) (o o' : copts) (vc vc' : V -> bool)
    (chunks chunks' : list (list (key * V))) (buf buf' : Z) (edges edges' : option (list nat)) (m m' : mcool V),
  (1 <= n)%nat -> 0 <= buf -> 0 <= buf' ->
  Permutation (concat chunks) (concat chunks') ->
  Forall (fun ch => (o_sort o = true \/ RowSorted ch) /\ Forall (fun p => 0 <= rowof p < Z.of_nat n) ch) chunks ->
  Forall (fun ch => (o_sort o' = true \/ RowSorted ch) /\ Forall (fun p => 0 <= rowof p < Z.of_nat n) ch) chunks' ->
  match edges with Some e => Admissible (length chunks) e | None => True end ->
  match edges' with Some e => Admissible (length chunks') e | None => True end ->
  unordered_g n o vc agg chunks buf edges = Ok m ->
  unordered_g n o' vc' agg chunks' buf' edges' = Ok m' -> m = m'.
Proof. intros V agg H1 H2. exact (unordered_independent_gen agg H1 H2). Qed.
Print Assumptions C06_unordered_independent_any_agg.
Theorem C06_max_min_obey_the_law :
  (forall vs vs', Permutation vs vs' -> lmax vs = lmax vs') /\
  (forall Gs : list (list Z), Forall (fun G => G <> []) Gs -> lmax (map lmax Gs) = lmax (concat Gs)) /\
  (forall vs vs', Permutation vs vs' -> lmin vs = lmin vs') /\
  (forall Gs : list (list Z), Forall (fun G => G <> []) Gs -> lmin (map lmin Gs) = lmin (concat Gs)).
Proof. repeat split; [exact max_perm|exact max_compose|exact min_perm|exact min_compose]. Qed.
Print Assumptions C06_max_min_obey_the_law.

(** no spurious failure (any value type / aggregation; dtype check switched off): at least one chunk, each
    acceptable to the validator under the options in force and sorted by bin1_id (or ensure_sorted), any
    mergebuf >= 0, single pass or any admissible edge list => the ingestion returns a result.  Covers the
    repaired defects D9 (IndexError with 2-3 chunks) and D16 (empty merge epoch). *)
Theorem C06_unordered_total : forall (V : Type) (n : nat) (o : copts) (agg : list V -> V)
    (chunks : list (list (key * V))) (buf : Z) (edges : option (list nat)),
  (1 <= n)%nat -> 0 <= buf -> chunks <> [] ->
  Forall (fun ch => Forall (fun p => KeyOK n o (fst p)) ch /\ (o_dup o = true -> has_dup ch = false) /\
                    (o_sort o = true \/ RowSorted ch) /\ Forall (fun p => 0 <= rowof p < Z.of_nat n) ch) chunks ->
  match edges with Some e => Admissible (length chunks) e | None => True end ->
  exists m, unordered_g n o (fun _ => true) agg chunks buf edges = Ok m.
Proof. intros V. exact (@unordered_total V). Qed.
Print Assumptions C06_unordered_total.

(** total form for counts: the ingestion succeeds AND stores the in-memory aggregate with its index *)
Theorem C06_unordered_correct : forall (n : nat) (o : copts) (chunks : list (list pixel)) (buf : Z) (edges : option (list nat)),
  (1 <= n)%nat -> 0 <= buf -> chunks <> [] ->
  Forall (fun ch => Forall (fun p => KeyOK n o (fst p)) ch /\ (o_dup o = true -> has_dup ch = false) /\
                    (o_sort o = true \/ RowSorted ch) /\ Forall (fun p => 0 <= rowof p < Z.of_nat n) ch) chunks ->
  match edges with Some e => Admissible (length chunks) e | None => True end ->
  unordered_g n o (fun _ => true) sumZ chunks buf edges = Ok (mk_cool n (aggregate (concat chunks))).
Proof. exact unordered_correct. Qed.
Print Assumptions C06_unordered_correct.

(** partial correctness, as in [C06_unordered_exact], for the EXECUTABLE model that the correspondence run
    evaluates (all requested integer columns, sums accumulated in int64, dtype range checks, all validation
    options, the computed edge list): IF create_from_unordered returns a cooler, it holds the group-by *)
Theorem C06_create_from_unordered_exact : forall names bins symm cols bc tc dc es chunks buf mm c,
  (1 <= length bins)%nat -> 0 <= buf -> chunks <> [] ->
  Forall (fun ch => (es = true \/ RowSorted ch) /\ Forall (fun p => 0 <= rowof p < Z.of_nat (length bins)) ch) chunks ->
  create_from_unordered names bins symm cols bc tc dc es chunks buf mm = Ok c ->
  c_px c = groupby_agg (agg_row (sum_ops cols)) (concat chunks) /\
  c_off c = index_of (length bins) (c_px c) /\ c_bins c = bins /\ c_symm c = symm /\ c_cols c = cols.
Proof. exact create_from_unordered_exact. Qed.
Print Assumptions C06_create_from_unordered_exact.

(** the edge list create_from_unordered computes (after the repair of D9) is admissible for every number
    of chunks n >= 1, so the theorems above apply to it *)
Theorem C06_two_pass_edges_ok : forall (n : nat) (max_merge : Z), (1 <= n)%nat ->
  match unordered_edges n max_merge with Some e => Admissible n e | None => True end.
Proof. exact unordered_edges_ok. Qed.
Print Assumptions C06_two_pass_edges_ok.

(** non-vacuity: three chunks that repeat a pixel, mergebuf 1, one pass and the two-pass edge list [0;3] / [0;1;3] *)
Example ex_C06_ingest :
  let o := {| o_bounds := true; o_triu := true; o_dup := true; o_sort := false |} in
  let chunks := [[((2,3),1); ((2,4),1)]; [((0,1),5); ((2,3),2)]; []] in
  unordered_g 5 o (fun _ => true) sumZ chunks 1 None = Ok (mk_cool 5 [((0,1),5); ((2,3),3); ((2,4),1)]) /\
  unordered_g 5 o (fun _ => true) sumZ chunks 1 (unordered_edges 3 1) = Ok (mk_cool 5 [((0,1),5); ((2,3),3); ((2,4),1)]) /\
  unordered_g 5 o (fun _ => true) sumZ chunks 1 (Some [0;1;3]%nat) = Ok (mk_cool 5 [((0,1),5); ((2,3),3); ((2,4),1)]) /\
  unordered_edges 3 1 = Some [0;3]%nat.
Proof. vm_compute. repeat split; reflexivity. Qed.
(** the defect D9 (now repaired): a single edge, as int(sqrt 3) = 1 point gave, makes the final merger
    receive no input at all -> IndexError *)
Example ex_C06_D9_single_edge_fails :
  unordered_g 5 {| o_bounds := true; o_triu := true; o_dup := true; o_sort := false |} (fun _ => true) sumZ
              [[((0,1),5)]; [((0,1),1)]; [((2,2),1)]] 1 (Some [0]%nat) = Err EIndex.
Proof. vm_compute. reflexivity. Qed.

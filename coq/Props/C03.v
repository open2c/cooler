(** C03  A 2D range query equals the same slice of the full matrix.
    Statements.  A proof here is [exact] of the lemma with the same statement, a few lines from the general lemmas, or an evaluation for a concrete witness;
    the lemmas are in Proofs/QueryMain.v (over QueryProofs.v and SpansProofs.v), Proofs/EndToEnd.v (schema-valid collections)
    and Proofs/GenBridge.v (source tie).
    [epx] = the stored pixel table with its row numbers, [off] = indexes/bin1_offset,
    [ValidCSR n epx off] = the table is the concatenation of n rows (row i = the records with bin1 = i)
    and off is the prefix-sum index of the row lengths. *)
From Cooler Require Import Model.Query Proofs.QueryProofs Proofs.SpansProofs Proofs.QueryMain.
From Cooler Require Import Gen.Translated Proofs.GenBridge.
From Cooler Require Model.Index Proofs.IndexProofs Proofs.EndToEnd.
From Coq Require Import Sorted Permutation.

(** pixel output (as_pixels / direct engine): exactly the stored records inside the window, in storage order,
    with their table positions, for every read chunk size *)
Theorem C03_direct_query_spec : forall n epx off cs i0 i1 j0 j1,
  ValidCSR n epx off -> 1 <= cs -> 0 <= i0 -> i0 <= i1 -> i1 <= n ->
  direct_query epx off (get_spans off cs) (i0, i1, j0, j1) =
  filter (fun r => in_window (i0, i1, j0, j1) (snd r)) epx.
Proof. exact direct_query_get_spans. Qed.
Print Assumptions C03_direct_query_spec.

(** symmetric-upper mode: the fill-lower engine never hits its "shouldn't happen" branch and returns a permutation
    of the symmetric completion restricted to the window, wherever the window lies relative to the diagonal *)
Theorem C03_fill_lower_perm : forall n epx off cs i0 i1 j0 j1,
  ValidCSR n epx off -> Upper epx -> 1 <= cs ->
  0 <= i0 -> i0 <= i1 -> i1 <= n -> 0 <= j0 -> j0 <= j1 -> j1 <= n ->
  exists out, fill_lower_query epx off (get_spans off cs) (i0, i1, j0, j1) = Some out /\
    Permutation (map snd out) (filter (in_window (i0, i1, j0, j1)) (completion (map snd epx))).
Proof. exact fill_lower_get_spans. Qed.
Print Assumptions C03_fill_lower_perm.

(** the same for every cut sequence that contains lo and hi and nothing above hi, as whatever np.linspace returns
    does: no floating-point fact about the interior cut points is used *)
Theorem C03_fill_lower_perm_any_cuts : forall n epx off cutsf i0 i1 j0 j1,
  ValidCSR n epx off ->
  (forall seq, StronglySorted Z.le seq -> seq <> [] -> AdmissibleCuts seq (cutsf seq)) ->
  Upper epx -> 0 <= i0 -> i0 <= i1 -> i1 <= n -> 0 <= j0 -> j0 <= j1 -> j1 <= n ->
  exists out, fill_lower_query epx off (spans_with cutsf off) (i0, i1, j0, j1) = Some out /\
    Permutation (map snd out) (filter (in_window (i0, i1, j0, j1)) (completion (map snd epx))).
Proof. intros n epx off cutsf i0 i1 j0 j1 HV Hc. exact (fill_lower_spec n epx off HV cutsf Hc i0 i1 j0 j1). Qed.
Print Assumptions C03_fill_lower_perm_any_cuts.

Theorem C03_direct_query_any_cuts : forall n epx off cutsf i0 i1 j0 j1,
  ValidCSR n epx off ->
  (forall seq, StronglySorted Z.le seq -> seq <> [] -> AdmissibleCuts seq (cutsf seq)) ->
  0 <= i0 -> i0 <= i1 -> i1 <= n ->
  direct_query epx off (spans_with cutsf off) (i0, i1, j0, j1) = filter (fun r => in_window (i0, i1, j0, j1) (snd r)) epx.
Proof. intros n epx off cutsf i0 i1 j0 j1 HV Hc. exact (direct_query_spec n epx off HV cutsf Hc i0 i1 j0 j1). Qed.
Print Assumptions C03_direct_query_any_cuts.

(** membership: an entry is emitted iff it is a stored pixel or the mirror image of an off-diagonal stored pixel, inside the window *)
Theorem C03_fill_lower_in : forall n epx off cutsf i0 i1 j0 j1,
  ValidCSR n epx off ->
  (forall seq, StronglySorted Z.le seq -> seq <> [] -> AdmissibleCuts seq (cutsf seq)) ->
  Upper epx -> 0 <= i0 -> i0 <= i1 -> i1 <= n -> 0 <= j0 -> j0 <= j1 -> j1 <= n ->
  exists out, fill_lower_query epx off (spans_with cutsf off) (i0, i1, j0, j1) = Some out /\
    forall x, In x (map snd out) <->
      (In x (map snd epx) \/ (row x <> col x /\ In (flip x) (map snd epx))) /\ in_window (i0, i1, j0, j1) x = true.
Proof. intros n epx off cutsf i0 i1 j0 j1 HV Hc. exact (fill_lower_in n epx off HV cutsf Hc i0 i1 j0 j1). Qed.
Print Assumptions C03_fill_lower_in.

(** no element is emitted twice (so the dense conversion, which adds up equal coordinates, doubles nothing) *)
Theorem C03_fill_lower_nodup : forall n epx off cutsf i0 i1 j0 j1,
  ValidCSR n epx off ->
  (forall seq, StronglySorted Z.le seq -> seq <> [] -> AdmissibleCuts seq (cutsf seq)) ->
  Upper epx -> NoDup (keys (map snd epx)) -> 0 <= i0 -> i0 <= i1 -> i1 <= n -> 0 <= j0 -> j0 <= j1 -> j1 <= n ->
  exists out, fill_lower_query epx off (spans_with cutsf off) (i0, i1, j0, j1) = Some out /\ NoDup (keys (map snd out)).
Proof. intros n epx off cutsf i0 i1 j0 j1 HV Hc. exact (fill_lower_nodup n epx off HV cutsf Hc i0 i1 j0 j1). Qed.
Print Assumptions C03_fill_lower_nodup.

(** dense output = the sub-block of the full symmetric matrix *)
Theorem C03_dense_eq_slice : forall n epx off cutsf i0 i1 j0 j1,
  ValidCSR n epx off ->
  (forall seq, StronglySorted Z.le seq -> seq <> [] -> AdmissibleCuts seq (cutsf seq)) ->
  Upper epx -> 0 <= i0 -> i0 <= i1 -> i1 <= n -> 0 <= j0 -> j0 <= j1 -> j1 <= n ->
  exists out, fill_lower_query epx off (spans_with cutsf off) (i0, i1, j0, j1) = Some out /\
    dense_of out (i0, i1, j0, j1) =
    map (fun i => map (fun j => symm (map snd epx) i j) (zrange j0 (Z.to_nat (j1 - j0)))) (zrange i0 (Z.to_nat (i1 - i0))).
Proof. intros n epx off cutsf i0 i1 j0 j1 HV Hc. exact (dense_eq_slice n epx off HV cutsf Hc i0 i1 j0 j1). Qed.
Print Assumptions C03_dense_eq_slice.

(** square mode (no fill): dense output = the sub-block of the stored matrix itself *)
Theorem C03_dense_square : forall n epx off cutsf i0 i1 j0 j1,
  ValidCSR n epx off ->
  (forall seq, StronglySorted Z.le seq -> seq <> [] -> AdmissibleCuts seq (cutsf seq)) ->
  0 <= i0 -> i0 <= i1 -> i1 <= n ->
  dense_of (direct_query epx off (spans_with cutsf off) (i0, i1, j0, j1)) (i0, i1, j0, j1) =
  map (fun i => map (fun j => look (map snd epx) (i, j)) (zrange j0 (Z.to_nat (j1 - j0)))) (zrange i0 (Z.to_nat (i1 - i0))).
Proof. intros n epx off cutsf i0 i1 j0 j1 HV Hc. exact (dense_direct n epx off HV cutsf Hc i0 i1 j0 j1). Qed.
Print Assumptions C03_dense_square.

(** the result does not depend on the read chunk size *)
Theorem C03_chunksize_independent_pixels : forall n epx off c1 c2 i0 i1 j0 j1,
  ValidCSR n epx off -> 1 <= c1 -> 1 <= c2 -> 0 <= i0 -> i0 <= i1 -> i1 <= n ->
  direct_query epx off (get_spans off c1) (i0, i1, j0, j1) = direct_query epx off (get_spans off c2) (i0, i1, j0, j1).
Proof. intros. rewrite !(direct_query_get_spans n) by assumption. reflexivity. Qed.
Print Assumptions C03_chunksize_independent_pixels.

Theorem C03_chunksize_independent_matrix : forall n epx off c1 c2 i0 i1 j0 j1,
  ValidCSR n epx off -> Upper epx -> 1 <= c1 -> 1 <= c2 ->
  0 <= i0 -> i0 <= i1 -> i1 <= n -> 0 <= j0 -> j0 <= j1 -> j1 <= n ->
  exists o1 o2, fill_lower_query epx off (get_spans off c1) (i0, i1, j0, j1) = Some o1 /\
                fill_lower_query epx off (get_spans off c2) (i0, i1, j0, j1) = Some o2 /\
                Permutation (map snd o1) (map snd o2) /\
                dense_of o1 (i0, i1, j0, j1) = dense_of o2 (i0, i1, j0, j1).
Proof. exact fill_lower_chunksize_independent. Qed.
Print Assumptions C03_chunksize_independent_matrix.

(** get_spans itself: consecutive spans from the first row of the box; only empty rows stay uncovered *)
Theorem C03_spans_cover : forall n (rows : list (list ipixel)) cs x0 x1 y0 y1,
  zlen rows = n -> 1 <= cs -> 0 <= x0 -> x0 <= x1 -> x1 <= n ->
  AdmissibleSpans rows x0 x1 (get_spans (psums 0 (map zlen rows)) cs (x0, x1, y0, y1)) \/
  (y1 <= y0 /\ get_spans (psums 0 (map zlen rows)) cs (x0, x1, y0, y1) = []).
Proof. intros n rows cs x0 x1 y0 y1 Hn Hcs. rewrite get_spans_eq. exact (spans_with_admissible n rows _ Hn (linspace_admissible cs Hcs) x0 x1 y0 y1). Qed.
Print Assumptions C03_spans_cover.

(** negative and open-ended bounds are resolved as for arrays; a scalar selects the one-element range *)
Theorem C03_process_slice_spec : forall start stop nmax, 0 <= nmax ->
  (forall a, start = Some a -> - nmax <= a <= nmax) -> (forall b, stop = Some b -> - nmax <= b <= nmax) ->
  let '(i0, i1) := process_slice start stop nmax in
  0 <= i0 <= nmax /\ 0 <= i1 <= nmax /\
  i0 = match start with None => 0 | Some a => a mod nmax + (if a =? nmax then nmax else 0) end /\
  i1 = match stop with None => nmax | Some b => b mod nmax + (if b =? nmax then nmax else 0) end.
Proof. exact process_slice_spec. Qed.
Print Assumptions C03_process_slice_spec.

Theorem C03_process_scalar_spec : forall s nmax, 0 < nmax ->
  (- nmax <= s < nmax -> process_scalar s nmax = Some (s mod nmax, s mod nmax + 1)) /\
  (nmax <= s -> process_scalar s nmax = None).
Proof. exact process_scalar_spec. Qed.
Print Assumptions C03_process_scalar_spec.

(** bounds below -n are resolved as for arrays too (clamped to 0: repaired defect D33), and a scalar
    outside [-n, n) on either side is refused *)
Theorem C03_process_slice_array_semantics : forall start stop nmax, 0 <= nmax ->
  (forall a, start = Some a -> a <= nmax) -> (forall b, stop = Some b -> b <= nmax) ->
  process_slice start stop nmax =
  (match start with None => 0 | Some a => array_bound a nmax end, match stop with None => nmax | Some b => array_bound b nmax end).
Proof. exact process_slice_array_semantics. Qed.
Print Assumptions C03_process_slice_array_semantics.
Theorem C03_process_scalar_refuses : forall s nmax, 0 <= nmax -> (s < - nmax \/ nmax <= s) -> process_scalar s nmax = None.
Proof. exact process_scalar_refuses. Qed.
Print Assumptions C03_process_scalar_refuses.

(** the hypothesis ValidCSR is decided by the executable check the correspondence run evaluates on the raw file columns *)
Theorem C03_valid_check_sound : forall n epx off, valid_csr_b n epx off = true -> ValidCSR n epx off.
Proof. exact valid_csr_b_sound. Qed.
Print Assumptions C03_valid_check_sound.

(** integration with C02: every stored collection that satisfies the published schema (the ValidCSR of property C02,
    which `create`, merge, coarsen, ... establish) meets the hypotheses above, so on every such collection the pixel query
    returns exactly the stored records in the window and the matrix query the sub-block of the symmetric matrix,
    each coordinate once, for every window and read chunk size *)
Theorem C03_on_every_schema_valid_collection : forall (c : Index.cooler) cs i0 i1 j0 j1,
  IndexProofs.ValidCSR c -> 1 <= cs ->
  0 <= i0 -> i0 <= i1 -> i1 <= Index.nbins c -> 0 <= j0 -> j0 <= j1 -> j1 <= Index.nbins c ->
  let epx := epx_of (Index.pixels_of c) in
  let off := Index.bin1_offset c in
  direct_query epx off (get_spans off cs) (i0, i1, j0, j1) = filter (fun r => in_window (i0, i1, j0, j1) (snd r)) epx /\
  (Index.symmetric_upper c = true ->
   exists out, fill_lower_query epx off (get_spans off cs) (i0, i1, j0, j1) = Some out /\
     NoDup (keys (map snd out)) /\
     dense_of out (i0, i1, j0, j1) =
     map (fun i => map (fun j => symm (Index.pixels_of c) i j) (zrange j0 (Z.to_nat (j1 - j0)))) (zrange i0 (Z.to_nat (i1 - i0)))).
Proof. exact EndToEnd.stored_cooler_range_queries. Qed.
Print Assumptions C03_on_every_schema_valid_collection.

(** tie by translation: the decision logic regenerated from /repo's source on this run (coq/Gen/Translated.v,
    written by tools/py2v.py) is the model the theorems above are about *)
Theorem C03_source_plan_is_model : forall bb,
  option_map (fun p => combine (fst p) (snd p)) (Gen.fill_lower_plan bb) = fill_lower_plan bb.
Proof. exact gen_fill_lower_plan. Qed.
Print Assumptions C03_source_plan_is_model.
Theorem C03_source_comes_before_contains_are_model : forall a0 a1 b0 b1 s,
  Gen.comes_before a0 a1 b0 b1 s = comes_before a0 a1 b0 b1 s /\ Gen.contains a0 a1 b0 b1 s = contains a0 a1 b0 b1 s.
Proof. intros. split; [apply gen_comes_before|apply gen_contains]. Qed.
Print Assumptions C03_source_comes_before_contains_are_model.
Theorem C03_source_process_slice_is_model : forall start stop s nmax,
  Gen.process_slice start stop nmax = process_slice start stop nmax /\ Gen.process_scalar s nmax = process_scalar s nmax.
Proof. intros. split; [apply gen_process_slice|apply gen_process_scalar]. Qed.
Print Assumptions C03_source_process_slice_is_model.
Theorem C03_source_pins : Gen.transpose_swaps_bin_ids = true /\ Gen.direct_tasks_one_per_span_no_reflect = true /\ Gen.reader_source_pins = true.
Proof. repeat split. Qed.
Print Assumptions C03_source_pins.

(** non-vacuity: a concrete 4-bin table with an empty row meets the hypotheses, and the engines give the expected answers *)
Definition ex_px : list pixel := [((0,0),5); ((0,2),7); ((2,2),1); ((2,3),4); ((3,3),9)].
Example ex_C03_valid :
  valid_csr_b 4 (epx_of ex_px) (offsets_of 4 ex_px) = true /\ upper_b ex_px = true /\ offsets_of 4 ex_px = [0;2;2;4;5].
Proof. vm_compute. repeat split. Qed.
Example ex_C03_fill_lower_window :
  option_map (fun o => dense_of o (2,4,0,3)) (fill_lower_query (epx_of ex_px) (offsets_of 4 ex_px) (get_spans (offsets_of 4 ex_px) 2) (2,4,0,3))
  = Some [[7;0;1]; [0;0;4]].
Proof. vm_compute. reflexivity. Qed.
Example ex_C03_direct_window :
  direct_query (epx_of ex_px) (offsets_of 4 ex_px) (get_spans (offsets_of 4 ex_px) 1) (0,3,2,4) = [(1,((0,2),7)); (2,((2,2),1)); (3,((2,3),4))].
Proof. vm_compute. reflexivity. Qed.
